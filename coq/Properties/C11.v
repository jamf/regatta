(* C11 - Writes through a follower are read-your-writes; waiting never wedges the node.
   Statements only; every proof is [exact] of a lemma of Proofs/.
   The event loop handles one event at a time; each handler works on the heap of ONE table.  [HInv h cs ans]: the
   waiters queued in heap h have pairwise distinct ids, an empty channel and no answer yet, and nobody was answered
   twice.  The theorems say each handler, from any state satisfying HInv, finishes (outcome Fine: no send on a full
   channel, no Peek/Pop on an empty heap, no double close), re-establishes HInv, leaves every other waiter's channel
   untouched (frame), and adds only justified answers. *)
From Coq Require Import Permutation.
From Verif Require Import Model.Queue Proofs.HeapFacts Proofs.QueueFacts Proofs.HeapOrder Proofs.QueueOrder Proofs.QueueGlobal.

(* a notification: never blocks; releases/errs only waiters of its heap that it should; nobody is answered twice *)
Theorem C11_notify_never_blocks : forall (canc : nat -> bool) (rev : N) (fuel : nat) (h : list item) cs ans,
  (fuel <= length h)%nat -> HInv h cs ans ->
  exists h' cs' new,
    notify_loop fuel canc rev h cs ans = (Fine, h', cs', ans ++ new) /\
    HInv h' cs' (ans ++ new) /\
    (forall j, ~ In j (ids h) -> cget cs' j = cget cs j) /\
    (forall y, In y h' -> In y h) /\
    justified canc (Some rev) h new.
Proof. exact notify_loop_never_blocks. Qed.
Print Assumptions C11_notify_never_blocks.

(* the periodic sweep: never blocks, errs only expired waiters of its heap, nobody twice, keeps exactly the live ones *)
Theorem C11_sweep_never_blocks : forall (canc : nat -> bool) (h : list item) cs ans, HInv h cs ans ->
  exists cs' new,
    sweep_scan canc h cs ans = (Fine, filter (fun x => negb (canc (it_id x))) h, cs', ans ++ new) /\
    HInv (filter (fun x => negb (canc (it_id x))) h) cs' (ans ++ new) /\
    (forall j, ~ In j (ids h) -> cget cs' j = cget cs j) /\
    justified canc None h new.
Proof. exact sweep_scan_never_blocks. Qed.
Print Assumptions C11_sweep_never_blocks.

Theorem C11_sweep_leaves_exactly_the_live : forall (canc : nat -> bool) (h : list item) (x : item),
  In x (heapify item lessi ditem (filter (fun x => negb (canc (it_id x))) h)) <-> In x h /\ canc (it_id x) = false.
Proof. exact sweep_leaves_live. Qed.
Print Assumptions C11_sweep_leaves_exactly_the_live.

(* adding a waiter (fresh id, fresh empty channel) and re-ordering the heap keep the invariant *)
Theorem C11_add : forall h cs ans (id : nat) (rev : N),
  HInv h cs ans -> ~ In id (ids h) -> ~ In id (ans_ids ans) ->
  HInv (push item lessi ditem h {| it_id := id; it_rev := rev |}) (cset cs id ChEmpty) ans.
Proof. exact HInv_push. Qed.
Print Assumptions C11_add.
Theorem C11_heapify_keeps_invariant : forall h h' cs ans, Permutation h h' -> HInv h cs ans -> HInv h' cs ans.
Proof. exact HInv_perm. Qed.

(* the heap operations lose or invent nothing: Pop removes exactly the root, New/Push permute *)
Theorem C11_pop_removes_root : forall (l : list item) (x : item) (l' : list item),
  pop item lessi ditem l = Some (x, l') -> exists r, l = x :: r /\ Permutation l' r.
Proof. exact (pop_spec item lessi ditem). Qed.
Theorem C11_heapify_permutes : forall l : list item, Permutation (heapify item lessi ditem l) l.
Proof. exact (heapify_perm item lessi ditem). Qed.
Print Assumptions C11_pop_removes_root.

(* the ORDER invariant of the slice-backed heap (no element smaller than its parent) is established by New and kept
   by Push and Pop, and it makes the root a minimum *)
Theorem C11_heap_push_ordered : forall (l : list item) (x : item), hok l -> hok (push item lessi ditem l x).
Proof. exact (push_ok item lessi ditem lei_trans lessi_le). Qed.
Theorem C11_heap_pop_ordered : forall (l : list item) (x : item) (l' : list item),
  hok l -> pop item lessi ditem l = Some (x, l') -> hok l'.
Proof. exact (pop_ok item lessi ditem lei_trans lessi_le). Qed.
Theorem C11_heapify_ordered : forall l : list item, hok (heapify item lessi ditem l).
Proof. exact (heapify_ok item lessi ditem lei_trans lessi_le). Qed.
Theorem C11_root_is_minimum : forall (h : list item) (e : item), hok h -> peek item h = Some e ->
  forall x, In x h -> it_rev e <= it_rev x.
Proof. exact root_min. Qed.
Print Assumptions C11_heap_pop_ordered.
Print Assumptions C11_heapify_ordered.

(* over the whole table map and every sequence of events that completes: all heaps stay ordered ... *)
Theorem C11_heaps_ordered : forall (es : list event) (s : qstate), all_heaps_ok s ->
  Forall (fun o => o = Fine) (fst (run s es)) -> all_heaps_ok (snd (run s es)).
Proof. exact run_heaps_ok. Qed.
Theorem C11_heaps_ordered_initially : all_heaps_ok q0.
Proof. exact (fun _ => hok_nil). Qed.
Print Assumptions C11_heaps_ordered.

(* ... hence promptness: once a notification of leader index r for a table has been handled, nobody in that table's
   queue still waits for a revision at or below r (cancelled or not); by C11_notify_never_blocks the answers given on
   the way are justified and nobody has two (that everyone who left has one is not stated) *)
Theorem C11_released_as_soon_as_notified : forall (s : qstate) (t rev : N) (s' : qstate) (r : option nat),
  all_heaps_ok s -> step s (ENotify t rev) = (Fine, s', r) ->
  forall x, In x (hget (heaps s') t) -> rev < it_rev x.
Proof. exact notify_prompt. Qed.
Print Assumptions C11_released_as_soon_as_notified.


(* The whole event loop over the whole table map.  GInv s: the table keys are distinct and ALL queued waiters of ALL tables together satisfy HInv.  One event handled
   from a GInv state completes (never Blocked, never Panicked), re-establishes GInv and introduces no waiter id other
   than the one an Add brings. *)
Theorem C11_event_never_blocks : forall (s : qstate) (e : event), GInv s -> fresh_event s e ->
  exists s' r, step s e = (Fine, s', r) /\ GInv s' /\
    (forall j, In j (known s') -> In j (known s) \/ is_add e j).
Proof. exact step_never_blocks. Qed.
Print Assumptions C11_event_never_blocks.

(* the node never wedges: EVERY sequence of events (adds to any tables with any revisions, cancellations,
   notifications, sweeps, caller reads, length queries) whose Add ids are new and pairwise distinct is handled to the
   end from any state satisfying GInv (the initial one does: C11_initial_state_good) *)
Theorem C11_loop_never_wedges : forall (es : list event) (s : qstate), GInv s -> NoDup (adds es) ->
  (forall j, In j (adds es) -> ~ In j (known s)) ->
  fst (run s es) = repeat Fine (length es) /\ GInv (snd (run s es)).
Proof. exact run_never_blocks. Qed.
Theorem C11_initial_state_good : GInv q0.
Proof. exact GInv0. Qed.
Print Assumptions C11_loop_never_wedges.

(* at most one answer per waiter, and an answered waiter is queued nowhere, in every reachable state *)
Theorem C11_answers_at_most_once : forall (es : list event) (s : qstate), GInv s -> NoDup (adds es) ->
  (forall j, In j (adds es) -> ~ In j (known s)) ->
  NoDup (ans_ids (answers (snd (run s es)))) /\
  forall x, In x (all_items (heaps (snd (run s es)))) -> ~ In (it_id x) (ans_ids (answers (snd (run s es)))).
Proof. exact run_answers_once. Qed.
Print Assumptions C11_answers_at_most_once.

Example C11_example :
  let evs := [EAdd 1 1 1; EAdd 2 1 2; EAdd 3 1 3; EAdd 4 1 4; EAdd 5 1 5; EAdd 6 1 6; EAdd 7 1 7; ECancel 4;
              ESweep; ERead 4; ESweep; ESweep; ELen 1; ENotify 1 3; ELen 1] in
  fst (run q0 evs) = repeat Fine 15 /\
  answers (snd (run q0 evs)) = [(4, AErr); (1, AOk); (2, AOk); (3, AOk)]%nat.
Proof. vm_compute. split; reflexivity. Qed.

Print Assumptions C11_heapify_keeps_invariant.
Print Assumptions C11_heapify_permutes.
Print Assumptions C11_heap_push_ordered.
Print Assumptions C11_root_is_minimum.
Print Assumptions C11_heaps_ordered_initially.
Print Assumptions C11_initial_state_good.

(* The first clause: a write acknowledged by a follower node has been applied to that node's copy.
   Model/Forward.v composes the forwarding server (forward to the leader, wait for the answered revision), the
   replication of the leader's log into the node's copy (Model/Replication.v), the apply path's reports of the copy's
   leader index, and the real queue of Model/Queue.v.  [ok_run]: replication acts on the copy's current leader index
   (C05's guard) and every call has its own waiter.  Generic in the table state S, the commands C and how a command
   acts on a state (app), so it holds for the state machine of C01 as for any other.
   ASSUMED (FNotify): every report carries the copy's leader index; the code also reports a local index in Open and for
   entries without a leader index (DESIGN section 9, no. 12).  "Any history" is over this alphabet, in which a write
   (leader append, answer, queue.Add) is ONE step; in the code replication and a report may fall between the answer and
   the Add: the waiter is then released by the table's next report only (or fails at its deadline), which does not
   touch what an answer without error implies. *)
From Verif Require Model.Forward Proofs.ForwardFacts.
Theorem C11_read_your_writes :
  forall (S C : Type) (app : S -> C -> S) (init : S) (tbl : N) (acts : list (Forward.fact C)) (id r : nat) (c : C),
  let n := Forward.frun S C app init tbl (Forward.node0 S C init) acts in
  Forward.ok_run S C app init tbl (Forward.node0 S C init) acts ->
  Forward.acked S C n id -> In (id, (r, c)) (Forward.n_wait S C n) ->
  Replication.f_store S (Replication.s_fol S C (Forward.n_sys S C n))
    = fold_left app (firstn (Forward.lidx S C n) (Replication.s_log S C (Forward.n_sys S C n))) init /\
  (1 <= r <= Forward.lidx S C n)%nat /\
  nth_error (firstn (Forward.lidx S C n) (Replication.s_log S C (Forward.n_sys S C n))) (r - 1) = Some c.
Proof. exact ForwardFacts.read_your_writes. Qed.
Print Assumptions C11_read_your_writes.

(* the invariant behind it holds after every single step (so also at every moment in between) *)
Theorem C11_forward_invariant_step :
  forall (S C : Type) (app : S -> C -> S) (init : S) (tbl : N) (n : Forward.node S C) (a : Forward.fact C),
  ForwardFacts.K S C app init n -> ForwardFacts.fact_ok S C n a -> ForwardFacts.K S C app init (Forward.fstep S C app init tbl n a).
Proof. exact ForwardFacts.K_step. Qed.
Print Assumptions C11_forward_invariant_step.

(* non-vacuity: commands are numbers, the state is the list of applied commands (newest first).  Waiter 7 writes 42
   (revision 2, after another writer's 5); a poll of one entry and its report release nobody, the next poll and report
   release waiter 7 - with the copy at leader index 2 holding both commands *)
Example C11_forward_example :
  let app := fun (s : list nat) (c : nat) => c :: s in
  let acts := [Forward.FRepl nat (Replication.ALeader nat 5%nat); Forward.FWrite nat 7%nat 42%nat;
               Forward.FRepl nat (Replication.APoll nat 1%nat []); Forward.FNotify nat;
               Forward.FQueue nat (ELen 1)] in
  let acts2 := acts ++ [Forward.FRepl nat (Replication.APoll nat 5%nat []); Forward.FNotify nat] in
  let n1 := Forward.frun _ _ app [] 1 (Forward.node0 _ _ []) acts in
  let n2 := Forward.frun _ _ app [] 1 (Forward.node0 _ _ []) acts2 in
  Forward.ok_run _ _ app [] 1 (Forward.node0 _ _ []) acts2 /\
  answers (Forward.n_q _ _ n1) = [] /\ Forward.lidx _ _ n1 = 1%nat /\
  answers (Forward.n_q _ _ n2) = [(7%nat, AOk)] /\ Forward.lidx _ _ n2 = 2%nat /\
  Replication.f_store _ (Replication.s_fol _ _ (Forward.n_sys _ _ n2)) = [42%nat; 5%nat].
Proof.
  vm_compute. split; [|repeat split].
  (* ok_run, act by act: only the write leaves something to check, that no earlier call has id 7 *)
  exact (conj eq_refl (conj (fun H : False => H) (conj eq_refl (conj I (conj I (conj eq_refl (conj I I))))))).
Qed.
