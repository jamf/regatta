(* C14 - Table catalogue: unique names, never-reused ids, empty when (re)created.
   [crun (cst0 k) acts]: any interleaving, at the granularity of single metadata-store operations, of CreateTable /
   DeleteTable / Restore (incl. restores whose stream breaks off) / GetTables calls by k managers.  Table names are
   path segments: names containing '/' would alias internal records ("sys/idseq" IS the id sequence) and are rejected
   by the repaired code (KNOWN_FINDINGS.json F-C14-slash-names). *)
From Verif Require Import Model.Catalogue Proofs.CatalogueFacts Model.MetaKV Proofs.CatalogueKeys.

(* ids assigned to created tables are pairwise distinct and above the range start in every reachable state:
   an id is never used twice, also not across delete and re-creation, whatever the interleaving *)
Theorem C14_ids_never_reused : forall (k : nat) (acts : list caction),
  let s := fst (crun (cst0 k) acts) in NoDup (c_created s) /\ forall id, In id (c_created s) -> start_id < id <= cur s.
Proof. exact ids_never_reused. Qed.
Print Assumptions C14_ids_never_reused.

(* the id a creation is about to use was never assigned before *)
Theorem C14_created_id_fresh : forall (s : cst) (m : nat) (name id : N), CInv s ->
  get_pc (c_pcs s) m = CCreate3 name id -> ~ In id (c_created s).
Proof. intros s m name id HI Ep. apply (held_id_fresh s m id HI). rewrite Ep. now left. Qed.
Print Assumptions C14_created_id_fresh.

Theorem C14_invariant_step : forall (s : cst) (a : caction), CInv s -> CInv (fst (cexec s a)).
Proof. exact cexec_inv. Qed.
Print Assumptions C14_invariant_step.

(* the same for Restore (also a retried one that finds the recovery id of an interrupted attempt in the record): the
   id it holds was never given to a table, and an id drawn from the sequence - by a creation or a restore - is greater
   than every id given to a table or still held by a program (an id a program has lost is not counted) *)
Theorem C14_restore_id_fresh : forall (s : cst) (m : nat) (id : N), CInv s ->
  In id (ids_of (get_pc (c_pcs s) m)) -> ~ In id (c_created s).
Proof. exact held_id_fresh. Qed.
Theorem C14_drawn_id_above_all : forall (s : cst) (m : nat) (v w : N), CInv s -> In (get_pc (c_pcs s) m) (c_pcs s) ->
  seqread (get_pc (c_pcs s) m) = Some (v, w) -> cas_seq s w = true -> forall id, In id (all_ids s) -> id < v + 1.
Proof. exact drawn_id_above. Qed.
Print Assumptions C14_restore_id_fresh.
Print Assumptions C14_drawn_id_above_all.

(* the last step of a restore switches the table to the recovery shard: its id becomes the table's id *)
Theorem C14_restore_switch : forall (s : cst) (m : nat) (name id ver : N),
  get_pc (c_pcs s) m = CRest5 name id ver -> cas_tab s name ver = true ->
  snd (cexec s (AStep m)) = CRRestored id /\
  tget (c_tabs (fst (cexec s (AStep m)))) name = Some ({| t_cluster := id; t_recover := 0 |}, c_next s) /\
  c_created (fst (cexec s (AStep m))) = id :: c_created s.
Proof. exact restore_switch. Qed.
(* undisturbed, a restore succeeds with the next id of the sequence, whatever record it starts from *)
Theorem C14_restore_alone : forall (s : cst) (m : nat) (name : N), (m < length (c_pcs s))%nat -> get_pc (c_pcs s) m = CIdle ->
  exists s', crun s [ARestore m name; AStep m; AStep m; AStep m; AStep m; AStep m] =
               (s', [CRNone; CRNone; CRNone; CRNone; CRNone; CRRestored (cur s + 1)]) /\
             tget (c_tabs s') name = Some ({| t_cluster := cur s + 1; t_recover := 0 |}, c_next s + 2) /\
             c_created s' = (cur s + 1) :: c_created s.
Proof. exact restore_alone. Qed.
Print Assumptions C14_restore_alone.

(* creating succeeds only if no table of that name exists - and, absent concurrent catalogue changes, always then *)
Theorem C14_create_existing_refused : forall (s : cst) (m : nat) (name : N) rv,
  get_pc (c_pcs s) m = CIdle -> tget (c_tabs s) name = Some rv -> snd (cexec s (ACreate m name)) = CRExists.
Proof. exact create_existing_refused. Qed.
Theorem C14_create_sequence_step_ok : forall (s : cst) (m : nat) (name v ver : N),
  get_pc (c_pcs s) m = CCreate2 name v ver -> (c_seq s = Some (v, ver) \/ (c_seq s = None /\ ver = 0)) ->
  exists s', cexec s (AStep m) = (s', CRNone) /\ c_pcs s' = set_pc (c_pcs s) m (CCreate3 name (v + 1)) /\ c_tabs s' = c_tabs s.
Proof. exact create_step_seq_ok. Qed.
Theorem C14_create_record_step_ok : forall (s : cst) (m : nat) (name id : N),
  get_pc (c_pcs s) m = CCreate3 name id -> tget (c_tabs s) name = None -> snd (cexec s (AStep m)) = CRCreated id.
Proof. exact create_step_record_ok. Qed.
Print Assumptions C14_create_record_step_ok.

(* of racing creations of one name at most one succeeds *)
Theorem C14_race : forall (s : cst) (m : nat) (name id : N) r w, CInv s ->
  get_pc (c_pcs s) m = CCreate3 name id -> tget (c_tabs s) name = Some (r, w) -> snd (cexec s (AStep m)) = CRExists.
Proof. exact race_second_create_fails. Qed.
Print Assumptions C14_race.

(* deleting succeeds only if the table exists, racing deletions included: the second one is refused (repaired code,
   KNOWN_FINDINGS F-C14-absent-key-cas) *)
Theorem C14_delete_reads_positive_version : forall (s : cst) (m : nat) (name : N) r (ver : N), CInv s ->
  get_pc (c_pcs s) m = CIdle -> tget (c_tabs s) name = Some (r, ver) ->
  fst (cexec s (ADelete m name)) = with_pc s m (CDelete1 name ver) /\ 1 <= ver.
Proof. exact delete_reads_positive. Qed.
Theorem C14_race_delete : forall (s : cst) (m : nat) (name ver : N), get_pc (c_pcs s) m = CDelete1 name ver -> ver <> 0 ->
  tget (c_tabs s) name = None -> snd (cexec s (AStep m)) = CRFailed /\ c_tabs (fst (cexec s (AStep m))) = c_tabs s.
Proof. exact race_second_delete_fails. Qed.
Theorem C14_restore_does_not_resurrect : forall (s : cst) (m : nat) (name : N) r (ver id : N),
  get_pc (c_pcs s) m = CRest3 name r ver id -> ver <> 0 -> tget (c_tabs s) name = None ->
  snd (cexec s (AStep m)) = CRFailed /\ c_tabs (fst (cexec s (AStep m))) = c_tabs s.
Proof. exact restore_after_delete_fails. Qed.
Print Assumptions C14_race_delete.
Example C14_delete_race_example :
  snd (crun (cst0 2) [ACreate 0 7; AStep 0; AStep 0; AStep 0; ADelete 0 7; ADelete 1 7; AStep 0; AStep 1]) =
  [CRNone; CRNone; CRNone; CRCreated 10001; CRNone; CRNone; CRDeleted; CRFailed].
Proof. vm_compute. reflexivity. Qed.

(* listing reflects precisely the records present in the catalogue *)
Theorem C14_listing_exact : forall (s : cst) (m : nat) (name : N), get_pc (c_pcs s) m = CIdle ->
  forall l, snd (cexec s (AList m)) = CRList l -> (In name (map fst l) <-> exists rv, In (name, rv) (c_tabs s)).
Proof. exact listing_exact. Qed.
Print Assumptions C14_listing_exact.

(* reconciliation starts exactly the catalogued shards (cluster or recovery id, non-zero, above the range start) that
   are not running and stops exactly the running shards above the range start that are not catalogued *)
Theorem C14_diff_exact : forall (tabs : list trec) (running : list N) (id : N),
  (In id (to_start tabs running) <-> In id (catalogued_ids tabs) /\ ~ In id running /\ start_id < id) /\
  (In id (to_stop tabs running) <-> In id running /\ ~ In id (catalogued_ids tabs) /\ start_id < id).
Proof. exact diff_exact. Qed.
Print Assumptions C14_diff_exact.

(* the data of the tables is a family indexed by shard id: an update at one id leaves the content at every other id
   as it was.  That a fresh id means a state machine and directory of its own, hence an empty table, is dragonboat's
   and not proved here *)
Theorem C14_isolation : forall (V : Type) (f : family V) (id : N) (v : V) (j : N), j <> id -> fam_update f id v j = f j.
Proof. exact (@family_isolation). Qed.
Print Assumptions C14_isolation.

(* non-vacuity for restores: an interrupted restore leaves its recovery id in the record; a creation draws the next id;
   the retried restore draws a NEW id (it does not pick the recovery id up again) *)
Example C14_restore_example :
  let out := crun (cst0 2) [ACreate 0 7; AStep 0; AStep 0; AStep 0;
                           ARestore 0 7; AStep 0; AStep 0; AStep 0; AFail 0;
                           ACreate 1 8; AStep 1; AStep 1; AStep 1;
                           ARestore 0 7; AStep 0; AStep 0; AStep 0; AStep 0; AStep 0; AList 1] in
  c_created (fst out) = [10004; 10003; 10001] /\
  last (snd out) CRNone = CRList [(7, 10004); (8, 10003)].
Proof. vm_compute. split; reflexivity. Qed.

Example C14_example :
  snd (crun (cst0 2) [ACreate 0 7; ACreate 1 7; AStep 0; AStep 1; AStep 0; AStep 1; AStep 0; AStep 1; AList 0]) =
  [CRNone; CRNone; CRNone; CRNone; CRNone; CRFailed; CRCreated 10001; CRNone; CRList [(7, 10001)]].
Proof. vm_compute. reflexivity. Qed.

Print Assumptions C14_restore_switch.
Print Assumptions C14_create_existing_refused.
Print Assumptions C14_create_sequence_step_ok.
Print Assumptions C14_delete_reads_positive_version.
Print Assumptions C14_restore_does_not_resurrect.

(* the catalogue in the metadata store: a table's record lives under "/tables/<name>" and the listing is the glob
   "/tables/*" - for names that are path segments it selects exactly the table records (not a lease below a table's
   name, not the id sequence below "sys"), and different names have different records *)
Theorem C14_listing_selects_every_table : forall name : bytes, no_slash name = true ->
  glob tables_pattern (stored_table_name name) = true.
Proof. exact listing_selects_tables. Qed.
Theorem C14_listing_skips_leases_and_the_sequence : forall name rest : bytes,
  glob tables_pattern (stored_table_name (name ++ slash :: rest)) = false.
Proof. exact listing_skips_deeper. Qed.
Theorem C14_names_have_their_own_record : forall a b : bytes, stored_table_name a = stored_table_name b -> a = b.
Proof. exact stored_name_injective. Qed.
Theorem C14_table_records_are_not_internal_records : forall a b rest : bytes, no_slash a = true ->
  stored_table_name a <> stored_table_name (b ++ slash :: rest).
Proof. exact stored_name_is_a_segment. Qed.
Print Assumptions C14_listing_selects_every_table.
Print Assumptions C14_listing_skips_leases_and_the_sequence.
Print Assumptions C14_names_have_their_own_record.
Print Assumptions C14_table_records_are_not_internal_records.

(* the API layer end to end (Model/Api.v: KVServer -> Engine -> ActiveTable -> state machine) *)
From Verif Require Model.Api Proofs.ApiFacts Model.Fsm Model.SMap.

(* operations on one table never change the content of another: whatever request is addressed to table t - accepted,
   refused, a transaction of any shape - every other table (stored form, so content AND bookkeeping) is untouched *)
Theorem C14_api_other_tables_untouched : forall (d : SMap.smap Fsm.store) (idx : N) (q : Api.api_req) (t' : bytes),
  t' <> Api.req_table q -> SMap.sget (fst (Api.impl_step d idx q)) t' = SMap.sget d t'.
Proof. exact ApiFacts.other_tables_untouched. Qed.
Print Assumptions C14_api_other_tables_untouched.

(* the key-value API neither creates nor drops tables *)
Theorem C14_api_keeps_the_table_set : forall (d : SMap.smap Fsm.store) (idx : N) (q : Api.api_req) (t' : bytes),
  Api.known _ (fst (Api.impl_step d idx q)) t' = Api.known _ d t'.
Proof. exact ApiFacts.known_preserved. Qed.
Print Assumptions C14_api_keeps_the_table_set.
