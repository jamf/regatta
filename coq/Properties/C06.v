(* C06 - Replication log stream is exact: consecutive applied entries, no gap or repeat.
   The Raft log is a marker (compaction point) and the consecutive entries after it; applied <= last.
   dragonboat's reader is its contract with the cut point as an oracle [cut]: every theorem holds for every cut. *)
From Verif Require Import Model.LogReader Proofs.LogReaderFacts Proofs.CacheFacts.

(* one answer for the range [F, applied+1): empty batch at applied+1, 'use snapshot' at or below the compaction
   point, otherwise the first n >= 1 of the log's entries in that range: at least one entry where the range has one -
   it has under wf_log *)
Theorem C06_simple_exact : forall (cut : N -> N -> N -> nat) (l : rlog) (applied mx F : N),
  applied <= llast l -> F <= applied + 1 ->
  exact_answer l applied F (simple_query cut l {| rfirst := F; rlast := applied + 1 |} mx).
Proof. exact simple_exact. Qed.
Print Assumptions C06_simple_exact.

(* the entries of a range of a well-formed log are consecutive from the requested index *)
Theorem C06_range_consecutive : forall (l : list lentry) (m lo hi : N),
  consec m l -> m + 1 <= lo -> consec (lo - 1) (filter (inr_b lo hi) l).
Proof. exact consec_filter. Qed.
Print Assumptions C06_range_consecutive.

(* the size limit only ever cuts a prefix, and never to nothing *)
Theorem C06_size_cut_prefix : forall (kf : bool) (es : list lentry) (mx : N), exists r, es = fix_size_gen kf es mx ++ r.
Proof. exact fix_size_prefix. Qed.
Theorem C06_size_cut_nonempty : forall (es : list lentry) (mx : N), es <> [] -> fix_size es mx <> [].
Proof. exact fix_size_nonempty. Qed.
Print Assumptions C06_size_cut_nonempty.

(* the stream: for ANY reader service q (cached or not, any cache state satisfying an invariant it preserves) whose
   single answers are exact, the messages sent for a request at F in (marker, applied+1] carry exactly the log
   entries F..applied, each labelled with its own index, in non-empty batches, followed by the up-to-date message *)
Theorem C06_stream_exact : forall (l : rlog) (applied : N), wf_log l -> applied <= llast l ->
  forall (q : cache -> lrange -> (list lentry + qerr) * cache) (Inv : cache -> Prop),
  (forall c F, Inv c -> 1 <= F -> marker l < F <= applied + 1 \/ F <= marker l ->
     exact_answer l applied F (fst (q c {| rfirst := F; rlast := applied + 1 |})) /\
     Inv (snd (q c {| rfirst := F; rlast := applied + 1 |}))) ->
  forall fuel c F, Inv c -> marker l < F <= applied + 1 ->
  (length (range_entries l F (applied + 1)) < fuel)%nat ->
  let ms := fst (replicate_loop fuel q c applied {| rfirst := F; rlast := applied + 1 |}) in
  cmds_of ms = map entry_to_command (range_entries l F (applied + 1)) /\
  exists front, ms = front ++ [MUpToDate applied] /\ Forall (fun m => exists cs, m = MCommands applied cs /\ cs <> []) front.
Proof. exact stream_exact. Qed.
Print Assumptions C06_stream_exact.

Theorem C06_leader_behind : forall fuel (q : cache -> lrange -> (list lentry + qerr) * cache) c (applied from : N), applied + 1 < from ->
  fst (replicate fuel q c applied from) = [MLeaderBehind].
Proof. exact replicate_leader_behind. Qed.
Theorem C06_use_snapshot : forall fuel (q : cache -> lrange -> (list lentry + qerr) * cache) (Inv : cache -> Prop) (l : rlog) c (applied from : N),
  (forall c F, Inv c -> 1 <= F -> marker l < F <= applied + 1 \/ F <= marker l ->
     exact_answer l applied F (fst (q c {| rfirst := F; rlast := applied + 1 |})) /\ Inv (snd (q c {| rfirst := F; rlast := applied + 1 |}))) ->
  Inv c -> 1 <= from -> from <= marker l -> marker l <= applied ->
  fst (replicate (S fuel) q c applied from) = [MUseSnapshot].
Proof. exact replicate_use_snapshot. Qed.
Print Assumptions C06_use_snapshot.

(* the optional log cache never changes the answer (apart from where the size limit cuts it): if the cache buffer is a
   contiguous slice of this log's entries - the empty cache is one, every query leaves one - every answer of
   Cached.QueryRaftLog meets the plain reader's contract, for every cache size, also for a query whose end is older than
   what the cache has already seen.  This is about one value of the log: its growth and the invalidation on compaction
   (Cached.LogCompacted) are not modelled here *)
Theorem C06_cached_answer_exact : forall (cut : N -> N -> N -> nat) (l : rlog) (c : cache) (applied F mx : N),
  wf_log l -> cache_ok l c -> 1 <= F -> marker l <= applied -> applied <= llast l ->
  (marker l < F <= applied + 1 \/ F <= marker l) ->
  exact_answer l applied F (fst (cached_query cut c l {| rfirst := F; rlast := applied + 1 |} mx)) /\
  cache_ok l (snd (cached_query cut c l {| rfirst := F; rlast := applied + 1 |} mx)).
Proof. exact cached_answer_exact. Qed.
Print Assumptions C06_cached_answer_exact.
Theorem C06_cache_initially_ok : forall (l : rlog) (size : nat), cache_ok l {| buf := []; csize := size |}.
Proof. intros l size. left. reflexivity. Qed.

(* hence the stream served through the cached reader is exact *)
Theorem C06_cached_stream_exact : forall (cut : N -> N -> N -> nat) (l : rlog) (applied mx : N),
  wf_log l -> marker l <= applied -> applied <= llast l ->
  forall fuel c F, cache_ok l c -> marker l < F <= applied + 1 ->
  (length (range_entries l F (applied + 1)) < fuel)%nat ->
  let ms := fst (replicate_loop fuel (fun c rg => cached_query cut c l rg mx) c applied {| rfirst := F; rlast := applied + 1 |}) in
  cmds_of ms = map entry_to_command (range_entries l F (applied + 1)) /\
  exists front, ms = front ++ [MUpToDate applied] /\ Forall (fun m => exists cs, m = MCommands applied cs /\ cs <> []) front.
Proof.
  intros cut l applied mx Hwf Hm Ha. apply (stream_exact l applied Hwf Ha _ (cache_ok l)).
  intros c F Hc H1 HF. now apply cached_answer_exact.
Qed.
Print Assumptions C06_cached_stream_exact.

Example C06_example :
  let l := {| marker := 2; lents := [ {| eidx := 3; epay := 30; esz := 10; eenc := true |};
                                      {| eidx := 4; epay := 0; esz := 10; eenc := false |};
                                      {| eidx := 5; epay := 50; esz := 10; eenc := true |} ] |} in
  wf_log l /\
  fst (replicate 10 (fun c r => (simple_query (fun _ _ _ => 2%nat) l r 100, c)) {| buf := []; csize := 0 |} 5 3) =
    [MCommands 5 [(RCmd 30, 3); (RDummy, 4)]; MCommands 5 [(RCmd 50, 5)]; MUpToDate 5].
Proof. split; [repeat split|vm_compute; reflexivity]. Qed.

Print Assumptions C06_size_cut_prefix.
Print Assumptions C06_leader_behind.
Print Assumptions C06_cache_initially_ok.
