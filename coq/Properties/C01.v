(* C01 - A table behaves as an ordered byte-string map for every command history.

   fsm_steps : the model of storage/table/fsm over the ENCODED Pebble key space (Model/Fsm.v);
   spec_steps: a plain sorted map from user keys to values applying the commands one after another (Model/Spec.v).
   A scenario is any interleaving of apply calls (each a non-empty list of log entries: put, delete, range delete,
   put/delete batches, nested sequences, dummy, transactions) with single/range/iterator reads, read-only
   transactions, index reads and reopen/snapshot transfer.  [repr U ol od] is the stored form of content U with
   bookkeeping values ol (applied index) and od (leader index). *)
From Coq Require Import Sorted.
From Verif Require Import Model.Fsm Model.Spec.
From Verif Require Import Proofs.SMapFacts Proofs.FsmRefine Proofs.SpecFacts Proofs.DeleteResp.

(* every response of every command and every later read, index reads included, equals the plain map's *)
Theorem C01_refines : forall (steps : list step) (ol od : option N) (st : spec_state),
  Forall wf_step steps -> u64o ol -> u64o od -> applied st = dflt ol -> leader st = dflt od ->
  fsm_steps (repr (content st) ol od) steps = spec_steps st steps /\
  exists ol' od', fsm_final (repr (content st) ol od) steps = repr (content (spec_final st steps)) ol' od' /\
                  applied (spec_final st steps) = dflt ol' /\ leader (spec_final st steps) = dflt od'.
Proof. exact steps_refine. Qed.
Print Assumptions C01_refines.

(* from the empty table *)
Theorem C01_refines_from_empty : forall steps : list step,
  Forall wf_step steps -> fsm_steps [] steps = spec_steps spec_init steps.
Proof. exact (fun steps H => steps_outputs_refine steps None None spec_init H I I eq_refl eq_refl). Qed.
Print Assumptions C01_refines_from_empty.

(* no user command can read, shadow or alter the bookkeeping: for EVERY command the responses and the new content
   do not depend on the bookkeeping values, and the bookkeeping entries are carried over unchanged *)
Theorem C01_bookkeeping_isolated : forall (ol od : option N) (c : command) (U : umap),
  f_handle (repr U ol od) c = (repr (fst (s_handle U c)) ol od, snd (s_handle U c)).
Proof. exact handle_refines. Qed.
Print Assumptions C01_bookkeeping_isolated.

(* the applied index a table reports equals the index of the last command applied *)
Theorem C01_applied_index : forall (es : list entry) (st : spec_state),
  applied (fst (spec_entries st es)) = last_index (applied st) es.
Proof. exact spec_entries_applied. Qed.
Print Assumptions C01_applied_index.

(* the content is a strictly sorted map at all times (ascending keys, no duplicates) *)
Theorem C01_sorted_invariant : forall (es : list entry) (st : spec_state),
  sorted (content st) -> sorted (content (fst (spec_entries st es))).
Proof. exact spec_entries_sorted. Qed.
Print Assumptions C01_sorted_invariant.

(* what a range means on the plain map: [lo,hi) by byte order, "\0" as hi = no upper end, inverted = empty *)
Theorem C01_range_membership : forall (U : umap) (lo hi k v : bytes), sorted U ->
  (In (k, v) (p_scan U lo hi) <-> sget U k = Some v /\ p_in lo hi k = true).
Proof. exact p_scan_spec. Qed.
Print Assumptions C01_range_membership.
Theorem C01_range_explicit : forall lo hi k : bytes, hi <> wildcard -> p_in lo hi k = bleb lo k && bltb k hi.
Proof. exact p_in_explicit. Qed.
Theorem C01_range_wildcard : forall lo k : bytes, p_in lo wildcard k = bleb lo k.
Proof. exact p_in_wildcard. Qed.
Theorem C01_range_inverted_empty : forall lo hi k : bytes, hi <> wildcard -> bleb hi lo = true -> p_in lo hi k = false.
Proof. exact p_in_inverted. Qed.
Print Assumptions C01_range_inverted_empty.

(* non-vacuity: a scenario satisfying the hypotheses with a non-trivial outcome *)
Example C01_example :
  let steps := [SApply [ {| e_index := 1; e_leader := None; e_cmd := CPut [97] [1] false |};
                         {| e_index := 2; e_leader := Some 7; e_cmd := CPut [97; 0] [2] true |} ];
                SApply [ {| e_index := 3; e_leader := None; e_cmd := CDelete [97] (Some [0]) true true |} ];
                SRead {| rq_key := [0]; rq_end := Some [0]; rq_limit := 0; rq_keys_only := false; rq_count_only := false |};
                SIndex] in
  Forall wf_step steps /\
  fsm_steps [] steps =
    [OutApply [ {| r_value := 1; r_rev := 1; r_resps := [RPut None]; r_data := true |};
                {| r_value := 1; r_rev := 2; r_resps := [RPut None]; r_data := true |} ] 7;
     OutApply [ {| r_value := 1; r_rev := 3; r_resps := [RDel 2 [([97], [1]); ([97; 0], [2])]]; r_data := true |} ] 3;
     OutRead {| rr_kvs := []; rr_more := false; rr_count := 0 |};
     OutIndex 3 7].
Proof.
  split; [|vm_compute; reflexivity].
  (* wf_step: each apply call is non-empty and its indices are below 2^64; the other steps ask nothing *)
  assert (W : forall i l c, u64 i -> u64o l -> wf_entry {| e_index := i; e_leader := l; e_cmd := c |}) by now split.
  apply Forall_cons; [|apply Forall_cons; [|apply Forall_cons; [exact I|apply Forall_cons; [exact I|apply Forall_nil]]]].
  - (* first apply call: entries 1 and 2 *)
    split; [discriminate|]. apply Forall_cons; [now apply W|]. apply Forall_cons; [now apply W|apply Forall_nil].
  - (* second apply call: entry 3 *)
    split; [discriminate|]. apply Forall_cons; [now apply W|apply Forall_nil].
Qed.

(* the response of a range delete.  It is computed by rangeLookup, i.e. it is the first page of the chunked
   iteration: it equals the plain map's answer (every deleted pair, their number) whenever no size cut happens
   ([nocut_pairs]: the pairs fit into one page of fsm_maxRangeSize); a count without pairs is exact for every range.
   For larger ranges with prev_kv the response is truncated - the sorted-map specification [Model/Spec.v] used in
   C01_refines has this paging built in; that deviation from a plain map is an open known finding
   (KNOWN_FINDINGS.json F-C01-delete-prev-paged), exhibited on the real code by the c01 engine's large-delete case. *)
Theorem C01_delete_prev_exact : forall (U : umap) (lo hi : bytes) (cnt : bool),
  Proofs.DeleteResp.nocut_pairs MFull (p_scan U lo hi) [] 0%Z = true ->
  snd (handle_delete umap p_get p_del p_delrange p_scan U {| dl_key := lo; dl_end := Some hi; dl_prev := true; dl_count := cnt |})
  = RDel (Z.of_nat (length (p_scan U lo hi))) (p_scan U lo hi).
Proof. exact Proofs.DeleteResp.delete_prev_exact. Qed.
Print Assumptions C01_delete_prev_exact.
Theorem C01_delete_count_exact : forall (U : umap) (lo hi : bytes),
  snd (handle_delete umap p_get p_del p_delrange p_scan U {| dl_key := lo; dl_end := Some hi; dl_prev := false; dl_count := true |})
  = RDel (Z.of_nat (length (p_scan U lo hi))) [].
Proof. exact Proofs.DeleteResp.delete_count_exact. Qed.
Print Assumptions C01_delete_count_exact.

Print Assumptions C01_range_explicit.
Print Assumptions C01_range_wildcard.

From Verif Require Model.Api Proofs.ApiFacts.

(* every response of every request sequence sent through the key-value API to freshly created tables - over the state
   machines on the encoded key space, with validation, table lookup, command construction and result decoding in
   between - equals the response of the same API over plain sorted maps (the premise on the log positions is not
   needed: ApiFacts.run_refines has none) *)
Theorem C01_api_refines : forall (names : list bytes) (qs : list (N * Api.api_req)),
  Forall (fun iq => u64 (fst iq)) qs ->
  snd (Api.impl_run (Api.fresh_impl names) qs) = snd (Api.spec_run (Api.fresh_spec names) qs).
Proof. exact ApiFacts.api_refines_from_fresh. Qed.
Print Assumptions C01_api_refines.
