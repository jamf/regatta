(* C13 - The metadata store is a deterministic compare-and-set register map. *)
From Coq Require Import Sorted.
From Verif Require Import Model.MetaKV Proofs.SMapFacts Proofs.MetaKVFacts.

(* setting or deleting a key succeeds iff the supplied version equals the current one; a key that does not exist has
   version 0 (repaired code, KNOWN_FINDINGS F-C14-absent-key-cas: before the repair an absent key was written or
   'deleted' regardless of the supplied version) *)
Theorem C13_cas_code : forall (s : mstore) (e : mentry),
  fst (snd (mupdate s e)) = if cas_ok s e then kv_ResultCodeSuccess else kv_ResultCodeVersionMismatch.
Proof. exact mupdate_code. Qed.
Print Assumptions C13_cas_code.

(* a mismatch leaves the store unchanged and reports the current pair *)
Theorem C13_mismatch : forall (s : mstore) (e : mentry) (cur : pair),
  mget s (me_key e) = Some cur -> pver cur <> me_ver e ->
  mupdate s e = (s, (kv_ResultCodeVersionMismatch, cur)).
Proof. exact mupdate_mismatch. Qed.
Print Assumptions C13_mismatch.

(* ... also for a key that does not exist: with any other version than 0 the update is refused and the (empty) current
   pair is reported *)
Theorem C13_absent_mismatch : forall (s : mstore) (e : mentry),
  mget s (me_key e) = None -> me_ver e <> 0 ->
  mupdate s e = (s, (kv_ResultCodeVersionMismatch, {| pk := me_key e; pv := []; pver := 0 |})).
Proof. exact mupdate_absent_mismatch. Qed.
Theorem C13_absent_match : forall (s : mstore) (e : mentry),
  mget s (me_key e) = None -> me_ver e = 0 ->
  mupdate s e = (apply_op s e, (kv_ResultCodeSuccess, {| pk := me_key e; pv := me_val e; pver := me_index e |})).
Proof. exact mupdate_absent. Qed.
Print Assumptions C13_absent_mismatch.

Theorem C13_match : forall (s : mstore) (e : mentry) (cur : pair),
  mget s (me_key e) = Some cur -> pver cur = me_ver e ->
  mupdate s e = (apply_op s e, (kv_ResultCodeSuccess, {| pk := me_key e; pv := me_val e; pver := me_index e |})).
Proof. exact mupdate_match. Qed.
Print Assumptions C13_match.

(* a successful set gives the key the entry's log index as version, larger than every version in the store;
   over a log with increasing indices all versions stay below the next index, so every later version is fresh *)
Theorem C13_fresh_version : forall (s : mstore) (e : mentry) (n : N),
  sorted s -> versions_below s n -> n <= me_index e -> me_op e = OpSet -> cas_ok s e = true ->
  sget (fst (mupdate s e)) (me_key e) = Some (me_val e, me_index e) /\
  pver (snd (snd (mupdate s e))) = me_index e /\
  (forall k v ver, sget s k = Some (v, ver) -> ver < me_index e).
Proof. exact set_fresh_version. Qed.
Print Assumptions C13_fresh_version.

Theorem C13_versions_bounded : forall (es : list mentry) (s : mstore) (n : N),
  sorted s -> versions_below s n -> increasing_from n es ->
  exists n', versions_below (fst (mrun s es)) n' /\ n <= n' /\ Forall (fun e => me_index e < n') es.
Proof. exact mrun_versions. Qed.
Print Assumptions C13_versions_bounded.

(* lookups reflect exactly the successful updates: the store refines a plain partial map on which only
   version-matching updates act, for every sequence of entries *)
Theorem C13_lookups_reflect : forall (es : list mentry) (s : mstore),
  sorted s -> forall k, sget (fst (mrun s es)) k = spec_run (sget s) es k.
Proof. exact mrun_refines. Qed.
Print Assumptions C13_lookups_reflect.

Theorem C13_invariant : forall (es : list mentry) (s : mstore), sorted s -> sorted (fst (mrun s es)).
Proof. exact mrun_sorted. Qed.
Print Assumptions C13_invariant.

(* glob listings: exactly the stored pairs whose key matches, in ascending key order *)
Theorem C13_getall_exact : forall (s : mstore) (pat : bytes) (p : pair),
  sorted s -> (In p (mgetall s pat) <-> mget s (pk p) = Some p /\ glob pat (pk p) = true).
Proof. exact mgetall_spec. Qed.
Print Assumptions C13_getall_exact.

Theorem C13_getall_sorted : forall (s : mstore) (pat : bytes),
  sorted s -> StronglySorted blt (map pk (mgetall s pat)).
Proof. exact mgetall_sorted. Qed.
Print Assumptions C13_getall_sorted.

(* replicas applying the same entries agree however the entries are grouped into apply calls *)
Theorem C13_deterministic : forall (a : list mentry) (s : mstore) (b : list mentry),
  mrun s (a ++ b) = let '(s1, o1) := mrun s a in let '(s2, o2) := mrun s1 b in (s2, o1 ++ o2).
Proof. exact mrun_app. Qed.
Print Assumptions C13_deterministic.

Theorem C13_snapshot_roundtrip : forall old s : mstore, mrecover old (msnapshot s) = s.
Proof. reflexivity. Qed.
Print Assumptions C13_snapshot_roundtrip.

Example C13_example :
  let e1 := {| me_index := 5; me_op := OpSet; me_key := [47; 97]; me_val := [1]; me_ver := 0 |} in
  let e2 := {| me_index := 6; me_op := OpSet; me_key := [47; 97]; me_val := [2]; me_ver := 4 |} in
  let e3 := {| me_index := 7; me_op := OpDelete; me_key := [47; 97]; me_val := []; me_ver := 5 |} in
  map fst (snd (mrun [] [e1; e2; e3])) = [kv_ResultCodeSuccess; kv_ResultCodeVersionMismatch; kv_ResultCodeSuccess]
  /\ fst (mrun [] [e1; e2]) = [([47; 97], ([1], 5))] /\ sorted (fst (mrun [] [e1; e2])).
Proof. repeat split. repeat constructor. Qed.

Print Assumptions C13_absent_match.
