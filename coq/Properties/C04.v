(* C04 - Crash recovery exposes exactly a prefix of the log, atomically and only once.
   The lemmas are in Proofs/DirProtoFacts.v.

   [run_eras es]: any number of eras, each an arbitrary sequence of operations (open, update, sync, close, snapshot
   install) cut by a crash after an arbitrary number of primitive file-system / Pebble steps, with an arbitrary
   survival oracle for what Pebble had flushed on its own.  The table's content is counted in whole log batches:
   a batch and its index are one Pebble batch (Model/Fsm.v [commit], C01), and the content after b batches is the
   result of applying exactly the entries of the first b batches (C01_refines / C02), so "b batches visible" is
   "exactly log entries 1..i with i the last index of batch b". *)
From Verif Require Import Model.DirProto Proofs.DirProtoFacts.

(* after any history of operations and crashes a reopen succeeds and shows b whole batches with
   acknowledged <= b <= applied *)
Theorem C04_crash_recovery : forall es : list era,
  exists b, reopen (run_eras es) = Some b /\ ack (run_eras es) <= b /\
            b <= top (exec (expand HOpen (run_eras es)) (bump HOpen (run_eras es))).
Proof.
  intros es. destruct (reopen_bounds _ (eras_good es)) as (b & Hb & Hlo & Hhi).
  destruct (hop_run HOpen _ (eras_good es)) as (_ & _ & _ & _ & Ht).
  exists b. now rewrite Ht.
Qed.
Print Assumptions C04_crash_recovery.

(* the invariant behind it holds after every single primitive step of every operation, not only between operations:
   from a good state the invariant holds at each prefix of the operation's steps and the state after it is good *)
Theorem C04_every_step : forall (h : hop) (s : st), Good s ->
  (forall k, Inv (exec (firstn k (expand h s)) (bump h s))) /\ Good (exec (expand h s) (bump h s)).
Proof. exact hop_safe_good. Qed.
Print Assumptions C04_every_step.
Theorem C04_initial : Good st0.
Proof. exact Good0. Qed.
Theorem C04_crash_is_good : forall pick s, Inv s -> Good (crash pick s).
Proof. exact crash_good. Qed.
Print Assumptions C04_crash_is_good.

(* the reopened table is an ordinary good state again (repeated crashes); k Update calls add k batches to the live DB *)
Theorem C04_reopen_good : forall es, Good (exec (expand HOpen (run_eras es)) (bump HOpen (run_eras es))).
Proof. intros es. exact (proj2 (hop_safe_good HOpen _ (eras_good es))). Qed.
Theorem C04_replay : forall k s d, live s = Some d ->
  live (updates k s) = Some d /\ mem (dbs (updates k s) d) = mem (dbs s d) + k.
Proof. exact updates_reach. Qed.
Print Assumptions C04_replay.

(* non-vacuity: two applied batches, one synced; crash in the middle of a snapshot install; crash again in the middle
   of the recovery *)
Example C04_example :
  reopen (run_eras [ {| e_ops := [HOpen; HUpdate; HSync; HUpdate; HRecover 5]; e_crash := 19; e_pick := fun _ => 0 |};
                     {| e_ops := [HOpen]; e_crash := 1; e_pick := fun _ => 0 |} ]) = Some 1.
Proof. vm_compute. reflexivity. Qed.

Print Assumptions C04_initial.
Print Assumptions C04_reopen_good.
