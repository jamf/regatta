(* C12 - Key encoding is injective, order-preserving, and isolates bookkeeping keys. *)
From Verif Require Import Model.KeyEnc Proofs.KeyEncFacts.

(* encode/decode round trip for every non-empty user key of any length and any byte values *)
Theorem C12_decode_encode : forall k : bytes, k <> [] -> decode_bytes (enc k) = inl (key_TypeUser, k).
Proof. exact (decode_encode key_TypeUser). Qed.
Print Assumptions C12_decode_encode.

(* the streaming decoder agrees for keys that fit the body limit *)
Theorem C12_decode_stream_encode : forall k : bytes,
  (length k < N.to_nat (key_V1KeyLen - key_headerLen))%nat -> decode_stream (enc k) = inl (key_TypeUser, k).
Proof. exact (decode_stream_encode key_TypeUser). Qed.
Print Assumptions C12_decode_stream_encode.

(* the quirk the API excludes by rejecting empty keys: the empty key does not round-trip *)
Theorem C12_decode_encode_empty_quirk : decode_bytes (enc []) = inl (key_TypeUnknown, []).
Proof. exact (decode_encode_empty key_TypeUser). Qed.
Print Assumptions C12_decode_encode_empty_quirk.

Theorem C12_injective : forall a b : bytes, enc a = enc b -> a = b.
Proof. exact (encode_inj key_TypeUser). Qed.
Print Assumptions C12_injective.

(* byte order of encoded keys = byte order of user keys (as a three-way comparison) *)
Theorem C12_order_preserving : forall a b : bytes, lex_compare (enc a) (enc b) = lex_compare a b.
Proof. exact (encode_order key_TypeUser). Qed.
Print Assumptions C12_order_preserving.

(* range bounds mean the same in both spaces *)
Theorem C12_range_bounds_agree : forall lo hi k : bytes,
  in_bounds (enc lo, enc hi) (enc k) = bleb lo k && bltb k hi.
Proof. exact range_bounds_agree. Qed.
Print Assumptions C12_range_bounds_agree.

(* every encodable user key - of ANY length and content - is below the upper bound used for the \0 wildcard,
   and a \0 lower bound is below-or-equal every non-empty key *)
Theorem C12_wildcard_covers_all_user_keys : forall k : bytes, blt (enc k) wildcard_upper.
Proof. exact wildcard_covers_all_user_keys. Qed.
Print Assumptions C12_wildcard_covers_all_user_keys.

Theorem C12_low_wildcard_is_minimum : forall k : bytes, k <> [] -> ble [0] k.
Proof. exact low_wildcard_is_minimum. Qed.
Print Assumptions C12_low_wildcard_is_minimum.

(* the two bookkeeping keys lie outside every range a request can express (explicit or wildcard end),
   are never the encoding of a user key, and decode as system keys *)
Theorem C12_sys_keys_outside_user_ranges : forall lo hi : bytes,
  in_bounds (bounds lo hi) sysLocalIndex = false /\ in_bounds (bounds lo hi) sysLeaderIndex = false.
Proof. exact sys_keys_outside_user_ranges. Qed.
Print Assumptions C12_sys_keys_outside_user_ranges.

Theorem C12_user_key_never_bookkeeping : forall k : bytes, enc k <> sysLocalIndex /\ enc k <> sysLeaderIndex.
Proof. exact enc_ne_bookkeeping. Qed.
Print Assumptions C12_user_key_never_bookkeeping.

Theorem C12_sys_keys_decode_system :
  decode_bytes sysLocalIndex = inl (key_TypeSystem, sys_name sysLocalIndex) /\
  decode_bytes sysLeaderIndex = inl (key_TypeSystem, sys_name sysLeaderIndex) /\
  sysLocalIndex <> sysLeaderIndex.
Proof. exact sys_keys_decode_system. Qed.
Print Assumptions C12_sys_keys_decode_system.

(* non-vacuity: concrete adversarial keys *)
Example C12_example_roundtrip :
  decode_bytes (enc [0; 255; 0]) = inl (key_TypeUser, [0; 255; 0]) /\
  lex_compare (enc [97]) (enc [97; 0]) = Lt /\ lex_compare (enc [255]) (enc [97; 255]) = Gt.
Proof. repeat split. Qed.
