(* C18 - Wire codecs and stream framing are lossless for every message and chunking.
   A message is a list of protobuf fields (number, value) in wire order; nested messages are length-delimited
   fields holding an encoded message; the schema layer (which Go field a number denotes, proto3 default omission,
   optional presence, oneof arms) is what the correspondence run compares against the generated codecs. *)
From Verif Require Import Model.ProtoWire Model.Framing Proofs.ProtoWireFacts Proofs.FramingFacts.

Theorem C18_varint_roundtrip : forall (x : N) (rest : bytes), x < 2 ^ 64 ->
  varint_dec 10 (varint_enc 10 x ++ rest) = Some (x, rest).
Proof. exact varint64_roundtrip. Qed.
Print Assumptions C18_varint_roundtrip.

(* every message survives encode/decode unchanged: all field kinds, any nesting (nested messages are byte fields),
   empty and large fields, any number of fields *)
Theorem C18_codec_roundtrip : forall (fs : list field), Forall wf_field fs -> forall fuel, (length fs <= fuel)%nat ->
  msg_dec fuel (msg_enc fs) = Some fs.
Proof. exact wire_roundtrip. Qed.
Print Assumptions C18_codec_roundtrip.

(* also when the receiving object is recycled from a pool *)
Theorem C18_pooled_decode_independent : forall (old1 old2 : list field) (fuel : nat) (s : bytes),
  decode_into old1 fuel s = decode_into old2 fuel s.
Proof. exact (fun _ _ _ _ => eq_refl). Qed.
Print Assumptions C18_pooled_decode_independent.

(* a sequence of commands written to a snapshot file and shipped as a chunk stream is read back as the same sequence
   with the same message boundaries - the empty messages excepted, which the writer skips - whatever the chunk sizes, for
   any compressor with the round-trip property *)
Theorem C18_framing : forall (compress decompress : bytes -> bytes), (forall s, decompress (compress s) = s) ->
  forall (ms : list bytes) (sizes : list nat), Forall msg_ok ms ->
  unframe (length ms) (decompress (unchunk (chunks sizes (compress (frame ms))))) =
  Some (filter (fun m => negb (Nat.eqb (length m) 0)) ms).
Proof. exact compressed_framing_roundtrip. Qed.
Print Assumptions C18_framing.

Theorem C18_any_chunking : forall (sizes : list nat) (s : bytes), unchunk (chunks sizes s) = s.
Proof. exact unchunk_chunks. Qed.
Print Assumptions C18_any_chunking.

Example C18_example :
  msg_enc [(1, WBytes [107]); (4, WBytes [118; 118]); (3, WVarint 300)] = [10; 1; 107; 34; 2; 118; 118; 24; 172; 2] /\
  msg_dec 3 [10; 1; 107; 34; 2; 118; 118; 24; 172; 2] = Some [(1, WBytes [107]); (4, WBytes [118; 118]); (3, WVarint 300)].
Proof. vm_compute. split; reflexivity. Qed.
