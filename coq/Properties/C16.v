(* C16 - Invalid requests are rejected without effect; no request can crash a server.
   The status of a request is decided by the validators before anything is proposed to the log: a non-OK status
   therefore means "no effect" (C16_refused_request_has_no_effect for the API model; for the real handlers the harness
   compares the responses and reads the tables back).
   "No request terminates the serving process": the validators are total functions (every request has a status);
   that the handlers behind them do not panic on any wire input is exercised by the harness (malformed stream),
   not a theorem - PARTIAL, see DESIGN.md. *)
From Verif Require Import Model.Validate Proofs.ValidateFacts.

(* Range / IterateRange: negative limit and keys_only+count_only are InvalidArgument, revision filters Unimplemented,
   and an accepted request satisfies every documented constraint *)
Theorem C16_range : forall r : range_rq,
  ((rr_limit r < 0)%Z -> range_status r = SInvalidArgument) /\
  ((0 <= rr_limit r)%Z -> rr_keys_only r = true -> rr_count_only r = true -> range_status r = SInvalidArgument) /\
  (range_status r = SOk -> (0 <= rr_limit r)%Z /\ (rr_keys_only r && rr_count_only r = false) /\
     (rr_min_mod r <= 0 /\ rr_max_mod r <= 0 /\ rr_min_create r <= 0 /\ rr_max_create r <= 0)%Z /\
     rr_table_len r <> 0 /\ rr_key_len r <> 0 /\ rr_table_known r = true /\ rr_key_len r <= key_limit /\ rr_end_len r <= key_limit) /\
  ((0 <= rr_limit r)%Z -> rr_keys_only r && rr_count_only r = false ->
     (0 < rr_min_mod r \/ 0 < rr_max_mod r \/ 0 < rr_min_create r \/ 0 < rr_max_create r)%Z -> range_status r = SUnimplemented).
Proof. exact range_rejections. Qed.
Print Assumptions C16_range.

Theorem C16_put_limits : forall r : put_rq, put_status r = SOk ->
  pr_table_len r <> 0 /\ 0 < pr_key_len r <= key_limit /\ pr_val_len r <= val_limit /\ pr_table_known r = true.
Proof. exact put_accepts_only_within_limits. Qed.
Theorem C16_delete_limits : forall r : del_rq, del_status r = SOk ->
  dr_table_len r <> 0 /\ 0 < dr_key_len r <= key_limit /\ dr_table_known r = true.
Proof. exact del_accepts_only_within_limits. Qed.
Print Assumptions C16_put_limits.

(* the same limits hold for the operations nested in a transaction (the API requests are the paths considered) *)
Theorem C16_limits_on_every_path : forall r : txn_rq, txn_status r = SOk ->
  forall o k v, In o (tr_ops r) -> In (k, v) (creates o) -> 0 < k <= key_limit /\ v <= val_limit.
Proof. exact txn_limits_on_every_path. Qed.
Print Assumptions C16_limits_on_every_path.

(* status classes: missing table/key InvalidArgument, unknown table NotFound, follower-side table mutations Unimplemented *)
Theorem C16_status_classes :
  (forall r, pr_table_len r = 0 \/ pr_key_len r = 0 -> put_status r = SInvalidArgument) /\
  (forall r, dr_table_len r = 0 \/ dr_key_len r = 0 -> del_status r = SInvalidArgument) /\
  (forall r, tr_table_len r = 0 -> txn_status r = SInvalidArgument) /\
  (forall r, pr_table_len r <> 0 -> pr_key_len r <> 0 -> pr_table_known r = false -> put_status r = SNotFound) /\
  (forall r, dr_table_len r <> 0 -> dr_key_len r <> 0 -> dr_table_known r = false -> del_status r = SNotFound) /\
  (forall r, tr_table_len r <> 0 -> tr_table_known r = false -> txn_status r = SNotFound) /\
  (forall r, tb_name_len r = 0 -> create_status r = SInvalidArgument /\ delete_status r = SInvalidArgument) /\
  follower_table_mutation_status = SUnimplemented.
Proof. exact status_classes. Qed.
Print Assumptions C16_status_classes.

Example C16_example :
  txn_status {| tr_table_len := 1; tr_table_known := true; tr_ops := [TPut 0 5; TRange 1 0] |} = SFailedPrecondition /\
  txn_status {| tr_table_len := 1; tr_table_known := true; tr_ops := [TPut 3 5; TDel 2 0; TUnset] |} = SOk.
Proof. vm_compute. split; reflexivity. Qed.

Print Assumptions C16_delete_limits.

(* which transactions are served on the READ path (regattapb.TxnRequest.IsReadonly): exactly those whose two branches
   hold nothing but range reads - an operation with an empty oneof, a put or a delete always goes through a proposal,
   where ActiveTable.Txn validates it; the read path creates no record *)
Theorem C16_read_path_only_ranges : forall succ fail : list txn_op, is_readonly succ fail = true ->
  forall o, In o (succ ++ fail) -> exists k e, o = TRange k e.
Proof. exact readonly_only_ranges. Qed.
Theorem C16_read_path_never_sees_an_empty_operation : forall succ fail : list txn_op,
  is_readonly succ fail = true -> ~ In TUnset (succ ++ fail).
Proof. exact readonly_no_unset. Qed.
Theorem C16_read_path_creates_nothing : forall succ fail : list txn_op,
  is_readonly succ fail = true -> flat_map creates (succ ++ fail) = [].
Proof. exact readonly_creates_nothing. Qed.
Theorem C16_write_path_for_everything_else : forall succ fail : list txn_op, is_readonly succ fail = false ->
  exists o, In o (succ ++ fail) /\ is_range o = false.
Proof. exact not_readonly_has_other. Qed.
Print Assumptions C16_read_path_only_ranges.
Print Assumptions C16_read_path_never_sees_an_empty_operation.
Print Assumptions C16_read_path_creates_nothing.
Print Assumptions C16_write_path_for_everything_else.

From Verif Require Model.Api Proofs.ApiFacts.

(* a refused request has no effect: whatever non-OK status a request to the key-value API is answered with, the database -
   every table, including its applied index - is the same value afterwards.  [impl_step]: the API over the state machines
   on the encoded Pebble key space *)
Theorem C16_refused_request_has_no_effect : forall (d : SMap.smap Fsm.store) (idx : N) (q : Api.api_req) (st : status),
  snd (Api.impl_step d idx q) = Api.PErr st -> fst (Api.impl_step d idx q) = d.
Proof. exact (ApiFacts.refused_no_effect ApiFacts.f_answer_rev). Qed.
Print Assumptions C16_refused_request_has_no_effect.

(* reads change nothing, whatever they answer *)
Theorem C16_reads_have_no_effect : forall (d : SMap.smap Fsm.store) (idx : N) (q : Api.api_req),
  match q with Api.QRange _ _ _ _ | Api.QIterate _ _ _ _ => True | _ => False end -> fst (Api.impl_step d idx q) = d.
Proof. exact ApiFacts.reads_no_effect. Qed.
Print Assumptions C16_reads_have_no_effect.

(* the same limits hold on every path that can create a record: over EVERY request sequence (puts, range deletes,
   transactions with arbitrarily nested operations, reads, refused requests, any tables) every record of every table has
   a non-empty key of at most key_limit bytes and a value of at most val_limit bytes, if that was so at the start *)
Theorem C16_limits_are_an_invariant : forall (qs : list (N * Api.api_req)) (sd : SMap.smap Spec.spec_state),
  ApiFacts.db_within sd -> ApiFacts.db_within (fst (Api.spec_run sd qs)).
Proof. exact (ApiFacts.run_invariant ApiFacts.db_within ApiFacts.limits_invariant). Qed.
Print Assumptions C16_limits_are_an_invariant.

(* ... and the API over the encoded state machines is the API over plain maps (C01 at the API) *)
Theorem C16_api_refines : forall (names : list bytes) (qs : list (N * Api.api_req)),
  Forall (fun iq => FsmRefine.u64 (fst iq)) qs ->
  snd (Api.impl_run (Api.fresh_impl names) qs) = snd (Api.spec_run (Api.fresh_spec names) qs).
Proof. exact ApiFacts.api_refines_from_fresh. Qed.
Print Assumptions C16_api_refines.

Example C16_api_example :
  let t := [116] in
  snd (Api.impl_run (Api.fresh_impl [t])
        [(5, Api.QPut t [97] [1] false);
         (6, Api.QPut t [] [1] false);                                        (* no key *)
         (6, Api.QTxn t [] [Cmd.OPut {| Cmd.pt_key := []; Cmd.pt_val := [2]; Cmd.pt_prev := false |}] []);   (* nested: no key *)
         (6, Api.QPut [120] [97] [1] false);                                  (* unknown table *)
         (6, Api.QRange t {| Cmd.rq_key := [0]; Cmd.rq_end := Some [0]; Cmd.rq_limit := 0; Cmd.rq_keys_only := false; Cmd.rq_count_only := false |}
                        true {| Api.fl_min_mod := 0; Api.fl_max_mod := 0; Api.fl_min_create := 0; Api.fl_max_create := 0 |})])
  = [Api.PPut None 5; Api.PErr SInvalidArgument; Api.PErr SFailedPrecondition; Api.PErr SNotFound;
     Api.PRange {| Cmd.rr_kvs := [([97], [1])]; Cmd.rr_more := false; Cmd.rr_count := 1 |}].
Proof. vm_compute. reflexivity. Qed.
