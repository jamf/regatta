(* C05 - A follower table always equals the leader table at its recorded leader index.
   The lemmas are in Proofs/ReplicationFacts.v, ReconcileFacts.v and PipelineFacts.v; the poll also rests on
   Proofs/LogReaderFacts.v ([stream_exact]), the recovery on Proofs/RestoreFacts.v ([restore_exact]).

   Generic in the state machine: [app : S -> C -> S] is one log entry applied to a table state (Model/Fsm.v for
   regatta; the theorems do not depend on it, so non-idempotent transactions and range deletes are covered).
   [run acts]: any interleaving of leader writes, leader log compactions, worker polls (any number of entries
   delivered, any chunking into proposals) and snapshot recoveries.  [guarded]: polls act on the follower's current
   leader index (one worker at a time - C15 - whose earlier proposals are finished); see Model/Replication.v. *)
From Verif Require Import Model.Replication Proofs.ReplicationFacts.
From Verif Require Import Model.Reconcile Proofs.ReconcileFacts.
Local Close Scope N_scope.

(* at every moment: follower content = leader content as of the recorded leader index (every leader entry exactly
   once, in leader order), and that index is one the leader has reached *)
Theorem C05_invariant : forall (S C : Type) (app : S -> C -> S) (init : S) (acts : list (act C)),
  forallb (guarded C) acts = true -> Inv S C app init (run S C app init acts).
Proof. exact run_inv. Qed.
Print Assumptions C05_invariant.
Theorem C05_invariant_step : forall (S C : Type) (app : S -> C -> S) (init : S) (s : sys S C) (a : act C),
  guarded C a = true -> Inv S C app init s -> Inv S C app init (step S C app init s a).
Proof. exact step_inv. Qed.

(* the recorded leader index never moves backwards, and what it denotes never changes (the leader's log only grows) *)
Theorem C05_monotone : forall (S C : Type) (app : S -> C -> S) (init : S) (s : sys S C) (a : act C),
  guarded C a = true -> Inv S C app init s ->
  f_lidx S (s_fol S C s) <= f_lidx S (s_fol S C (step S C app init s a)).
Proof. exact step_monotone. Qed.
Theorem C05_leader_prefix_stable : forall (S C : Type) (app : S -> C -> S) (init : S) (s : sys S C) (a : act C) i,
  i <= length (s_log S C s) ->
  state_at S C app init (s_log S C (step S C app init s a)) i = state_at S C app init (s_log S C s) i.
Proof.
  intros S C app init s a i H. destruct a; try reflexivity.
  - now apply state_at_app.
  - now rewrite poll_log.
Qed.
Print Assumptions C05_monotone.

(* convergence: a served poll moves strictly forward while something is missing; a complete stream, or a snapshot
   recovery (by definition of [ARecover]; tied to the code by C05_recovery_is_the_restore), reaches the leader's latest state *)
Theorem C05_progress : forall (S C : Type) (app : S -> C -> S) (init : S) (s : sys S C) n sizes,
  Inv S C app init s -> 1 <= n -> s_marker S C s <= f_lidx S (s_fol S C s) ->
  f_lidx S (s_fol S C s) < length (s_log S C s) ->
  f_lidx S (s_fol S C s) < f_lidx S (s_fol S C (step S C app init s (APoll C n sizes))).
Proof.
  intros S C app init s n sizes HI Hn Hm Hlt.
  destruct (poll_lands S C app init s n sizes HI Hm) as [_ H2]. rewrite H2. lia.
Qed.
Theorem C05_poll_reaches_leader : forall (S C : Type) (app : S -> C -> S) (init : S) (s : sys S C) n sizes,
  Inv S C app init s -> s_marker S C s <= f_lidx S (s_fol S C s) ->
  length (s_log S C s) - f_lidx S (s_fol S C s) <= n ->
  let s' := step S C app init s (APoll C n sizes) in
  f_lidx S (s_fol S C s') = length (s_log S C s) /\
  f_store S (s_fol S C s') = state_at S C app init (s_log S C s) (length (s_log S C s)).
Proof. exact poll_complete. Qed.
Theorem C05_recovery_reaches_leader : forall (S C : Type) (app : S -> C -> S) (init : S) (s : sys S C),
  let s' := step S C app init s (ARecover C) in
  f_lidx S (s_fol S C s') = length (s_log S C s) /\
  f_store S (s_fol S C s') = state_at S C app init (s_log S C s) (length (s_log S C s)).
Proof. intros. exact (conj eq_refl eq_refl). Qed.
Print Assumptions C05_poll_reaches_leader.

(* trace validation: a follower log that [follows] the leader's log (the check the correspondence run evaluates on the
   real follower's raft log) leaves the follower with exactly the leader's state at the final index *)
Theorem C05_follower_log_explained : forall (S C : Type) (app : S -> C -> S) (init : S) (ceq : C -> C -> bool),
  (forall x y, ceq x y = true -> x = y) ->
  forall (L : list C) (ps : list (fprop C)) (cur fin : nat) (f : fol S),
  follows C ceq L cur ps = Some fin -> cur <= length L ->
  f_store S f = state_at S C app init L cur -> f_lidx S f = cur ->
  let f' := replay S C app init L f ps in
  f_store S f' = state_at S C app init L fin /\ f_lidx S f' = fin /\ cur <= fin <= length L.
Proof. exact follows_exact. Qed.
Print Assumptions C05_follower_log_explained.

(* non-vacuity *)
Example C05_example :
  let s := run (list nat) nat (fun s c => c :: s) []
             [ALeader nat 1; ALeader nat 2; APoll nat 1 []; ALeader nat 3; ACompact nat 2; ALeader nat 4;
              APoll nat 5 [0]; ARecover nat; ALeader nat 5; APoll nat 9 [1]] in
  f_lidx _ (s_fol _ _ s) = 5 /\ f_store _ (s_fol _ _ s) = [5; 4; 3; 2; 1].
Proof. vm_compute. split; reflexivity. Qed.

(* ---- the SET of replicated tables (replication.Manager.reconcileTables) ----
   after one reconciliation against the leader's listing the follower has exactly the leader's tables: tables created
   on the leader appear, tables deleted there disappear - down to none at all; nothing the leader still has is deleted
   and nothing the follower already has is created; an equal set is left alone *)
Theorem C05_tables_converge : forall (leader follower : list N) (x : N), In x (reconcile leader follower) <-> In x leader.
Proof. exact reconcile_exact. Qed.
Theorem C05_tables_converge_to_none : forall follower : list N, reconcile [] follower = [].
Proof. exact reconcile_empty_leader. Qed.
Theorem C05_tables_minimal_change : forall (leader follower : list N) (x : N),
  (In x (to_delete leader follower) <-> In x follower /\ ~ In x leader) /\
  (In x (to_create leader follower) <-> In x leader /\ ~ In x follower).
Proof. exact reconcile_minimal. Qed.
Theorem C05_tables_stable : forall leader : list N, reconcile leader leader = leader.
Proof. exact reconcile_stable. Qed.
Print Assumptions C05_tables_converge.
Print Assumptions C05_tables_stable.

Print Assumptions C05_invariant_step.
Print Assumptions C05_leader_prefix_stable.
Print Assumptions C05_progress.
Print Assumptions C05_recovery_reaches_leader.
Print Assumptions C05_tables_converge_to_none.
Print Assumptions C05_tables_minimal_change.

(* ---- one poll, end to end: the stream of C06 consumed by the worker IS the abstract poll of the model above ----
   Model/Pipeline.v: what LogServer.Replicate streams (Model/LogReader.v, over ANY reader service - cached or not, any
   cache state under an invariant - whose single answers are exact), consumed by worker.do/proposeBatch: each message cut
   into proposals anywhere, each proposal one SEQUENCE tagged with the leader index the stream attached to its last
   command.  For a follower that recorded leader index r (marker <= r <= applied): afterwards it has applied exactly the
   leader's entries r+1 .. applied, each once and in leader order, and records leader index applied - the [apply_seq] of
   an [APoll] with n = applied - r. *)
From Verif Require Model.Pipeline Proofs.PipelineFacts Model.LogReader Proofs.LogReaderFacts.
Theorem C05_poll_is_the_stream_consumed :
  forall (S C : Type) (app : S -> C -> S) (cmd_of : LogReader.rcmd -> C) (l : LogReader.rlog) (applied : N),
  LogReaderFacts.wf_log l -> (applied <= LogReader.llast l)%N ->
  forall (q : LogReader.cache -> LogReader.lrange -> (list LogReader.lentry + LogReader.qerr) * LogReader.cache) (Inv : LogReader.cache -> Prop),
  (forall c F, Inv c -> (1 <= F)%N -> (LogReader.marker l < F <= applied + 1)%N \/ (F <= LogReader.marker l)%N ->
     LogReaderFacts.exact_answer l applied F (fst (q c {| LogReader.rfirst := F; LogReader.rlast := (applied + 1)%N |})) /\
     Inv (snd (q c {| LogReader.rfirst := F; LogReader.rlast := (applied + 1)%N |}))) ->
  forall (fuel : nat) (c : LogReader.cache) (f : fol S) (sizes : list (list nat)),
  let r := f_lidx S f in
  let F := (N.of_nat r + 1)%N in
  Inv c -> (LogReader.marker l < F <= applied + 1)%N ->
  length (LogReader.range_entries l F (applied + 1)%N) < fuel ->
  let ms := fst (LogReader.replicate_loop fuel q c applied {| LogReader.rfirst := F; LogReader.rlast := (applied + 1)%N |}) in
  let es := map (PipelineFacts.ecmd C cmd_of) (LogReader.range_entries l F (applied + 1)%N) in
  Pipeline.consume S C app cmd_of f ms sizes = apply_seq S C app f es (r + length es) /\ r + length es = N.to_nat applied.
Proof. exact PipelineFacts.poll_exact. Qed.
Print Assumptions C05_poll_is_the_stream_consumed.

(* however a message is cut into proposals, its commands are applied once, in order, and the recorded index is the label
   of its last command *)
Theorem C05_proposals_apply_every_command_once :
  forall (S C : Type) (app : S -> C -> S) (cmd_of : LogReader.rcmd -> C) (sizes : list nat) (cs : list (LogReader.rcmd * N)) (f : fol S),
  f_store S (Pipeline.propose_stream S C app cmd_of f cs sizes) = fold_left app (PipelineFacts.cmds C cmd_of cs) (f_store S f) /\
  f_lidx S (Pipeline.propose_stream S C app cmd_of f cs sizes) = match cs with [] => f_lidx S f | _ => PipelineFacts.lbl S f cs end.
Proof. exact PipelineFacts.propose_stream_flat. Qed.
Print Assumptions C05_proposals_apply_every_command_once.

(* ... and the other way to catch up: snapshot recovery.  The leader streams its table as of its applied index n (one PUT
   per pair in key order, then a DUMMY declaring n); the follower loads the stream into a fresh shard in batches of any
   size (C07's model of readIntoTable).  What it then holds - content and recorded leader index - is exactly what the step
   [ARecover] of the model above gives it.  Commands act on plain maps as in C01. *)
From Verif Require Model.Restore Model.Cmd Model.Spec Proofs.RestoreFacts.
Theorem C05_recovery_is_the_restore : forall (maxInMem : N) (size_of : Bytes.bytes * Bytes.bytes -> N) (s : sys Spec.umap Cmd.command),
  let n := length (s_log Spec.umap Cmd.command s) in
  let captured := state_at Spec.umap Cmd.command PipelineFacts.app_cmd [] (s_log Spec.umap Cmd.command s) n in
  let f' := s_fol Spec.umap Cmd.command (step Spec.umap Cmd.command PipelineFacts.app_cmd [] s (ARecover Cmd.command)) in
  Restore.restored (Restore.read_into_table maxInMem (Restore.table_stream size_of captured (Some (N.of_nat n))))
  = (f_store Spec.umap f', N.of_nat (f_lidx Spec.umap f')).
Proof. intros maxInMem size_of s. apply RestoreFacts.restore_exact, PipelineFacts.state_at_sorted. Qed.
Print Assumptions C05_recovery_is_the_restore.

(* non-vacuity: a log compacted up to 2 holding entries 3..6 (entry 5 is not a command), applied = 5; a follower at
   leader index 3 polls through the plain reader, which hands out one entry per answer: two messages, entries 4 and 5
   applied in order (the non-command as a dummy), leader index 5; entry 6 is not shipped *)
Example C05_pipeline_example :
  let e := fun i enc => {| LogReader.eidx := i; LogReader.epay := 100 + i; LogReader.esz := 10; LogReader.eenc := enc |} in
  let l := {| LogReader.marker := 2; LogReader.lents := [e 3%N true; e 4%N true; e 5%N false; e 6%N true] |} in
  let q := fun (c : LogReader.cache) r => (LogReader.simple_query (fun _ _ _ => 1%nat) l r 1000%N, c) in
  let cmd_of := fun (c : LogReader.rcmd) => match c with LogReader.RCmd p => N.to_nat p | LogReader.RDummy => 0%nat end in
  let f := {| f_store := [103%nat]; f_lidx := 3 |} in
  let ms := fst (LogReader.replicate_loop 10 q {| LogReader.buf := []; LogReader.csize := 0 |} 5%N {| LogReader.rfirst := 4%N; LogReader.rlast := 6%N |}) in
  Pipeline.consume (list nat) nat (fun s c => c :: s) cmd_of f ms [[]; []] = {| f_store := [0%nat; 104%nat; 103%nat]; f_lidx := 5 |}.
Proof. vm_compute. reflexivity. Qed.
