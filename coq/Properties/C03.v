(* C03 - Replicas converge: state depends only on the log, not on how it is batched. *)
From Verif Require Import Model.Fsm Model.Spec.
From Verif Require Import Proofs.FsmRefine Proofs.SpecFacts.

(* Applying a log cut into ANY sequence of non-empty consecutive apply batches yields a store (content and both
   bookkeeping values) and per-entry results that are functions of the concatenated log only. *)
Theorem C03_batching : forall (bs : list (list entry)) (ol od : option N) (st : spec_state),
  Forall (fun b => b <> []) bs -> bs <> [] -> applied st = dflt ol -> leader st = dflt od ->
  let st' := fst (spec_entries st (concat bs)) in
  run_batches (repr (content st) ol od) bs =
  (repr (content st') (Some (applied st')) (after_log st od (concat bs)), snd (spec_entries st (concat bs))).
Proof. exact run_batches_refines. Qed.
Print Assumptions C03_batching.

(* hence two replicas that applied the same log under different batchings are equal in content, bookkeeping and results *)
Theorem C03_replicas_agree : forall (p1 p2 : list (list entry)) (ol od : option N) (st : spec_state),
  concat p1 = concat p2 -> Forall (fun b => b <> []) p1 -> Forall (fun b => b <> []) p2 -> p1 <> [] -> p2 <> [] ->
  applied st = dflt ol -> leader st = dflt od ->
  run_batches (repr (content st) ol od) p1 = run_batches (repr (content st) ol od) p2.
Proof.
  intros p1 p2 ol od st E H1 H2 N1 N2 Ha Hl. rewrite !run_batches_refines by assumption. now rewrite E.
Qed.
Print Assumptions C03_replicas_agree.

(* reopen and snapshot transfer at any cut point: in the model both hand over the store value unchanged
   (fsm_steps treats SReopen as the identity on the store); that the implementation's Close/Open and
   Save/RecoverFromSnapshot (either format, also across formats) do the same is what the correspondence runs compare *)
Theorem C03_steps_with_reopen : forall (steps : list step) (ol od : option N) (st : spec_state),
  Forall wf_step steps -> u64o ol -> u64o od -> applied st = dflt ol -> leader st = dflt od ->
  fsm_steps (repr (content st) ol od) steps = spec_steps st steps.
Proof. exact steps_outputs_refine. Qed.
Print Assumptions C03_steps_with_reopen.

Example C03_example :
  let e1 := {| e_index := 1; e_leader := Some 77; e_cmd := CPut [97] [1] false |} in
  let e2 := {| e_index := 2; e_leader := None; e_cmd := CPut [98] [2] false |} in
  run_batches [] [[e1; e2]] = run_batches [] [[e1]; [e2]] /\ leader_index (fst (run_batches [] [[e1]; [e2]])) = 77.
Proof. vm_compute. split; reflexivity. Qed.
