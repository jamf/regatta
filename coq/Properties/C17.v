(* C17 - Protected endpoints reject callers lacking the right token or certificate.
   Regatta's own decision logic is modelled; chain verification and hostname matching of crypto/tls and crypto/x509
   enter as inputs of the decision (PARTIAL: what crypto/tls does with the produced tls.Config is observed by the
   harness in real handshakes, not proved). *)
From Verif Require Import Model.Auth Proofs.AuthFacts Model.Validate Proofs.ValidateFacts.

(* with a token configured, a call passes only with the header "<bearer, any case> <exactly that token>" *)
Theorem C17_token_required : forall (token : bytes) (header : option bytes), token <> [] ->
  auth_func token header = true ->
  exists scheme, header = Some (scheme ++ 32 :: token) /\ eq_fold scheme bearer = true /\ ~ In 32 scheme.
Proof. exact token_required. Qed.
Print Assumptions C17_token_required.

(* no bearer token, or a different one (prefix, suffix, other case, anything else): refused *)
Theorem C17_wrong_token_refused : forall (token scheme t : bytes), token <> [] -> t <> token -> ~ In 32 scheme ->
  auth_func token (Some (scheme ++ 32 :: t)) = false.
Proof. exact wrong_token_refused. Qed.
Theorem C17_missing_header_refused : forall token : bytes, token <> [] -> auth_func token None = false.
Proof. exact missing_header_refused. Qed.
Print Assumptions C17_wrong_token_refused.

(* services without an override are governed by the default, which allows every call; a service with an override
   is governed by its own token only *)
Theorem C17_other_services_unaffected : forall header : option bytes, intercept None header = true.
Proof. exact (fun _ => eq_refl). Qed.
Theorem C17_override_decides : forall (tok : bytes) (header : option bytes), intercept (Some tok) header = auth_func tok header.
Proof. exact (fun _ _ => eq_refl). Qed.

(* TLS: a trusted CA or client-cert-auth makes client certificates mandatory and verified; CN and hostname options
   are mutually exclusive and install the peer verification *)
Theorem C17_tls_requires : forall (o : tls_opts) (mode : client_auth) (vp : bool), server_config o = Cfg mode vp ->
  (o_trusted_ca o = true \/ o_client_cert_auth o = true -> mode = RequireAndVerifyClientCert) /\
  (vp = true <-> o_allowed_cn o <> [] \/ o_allowed_hostname o <> []).
Proof. exact tls_requires. Qed.
Theorem C17_tls_mutually_exclusive : forall o : tls_opts,
  o_allowed_cn o <> [] -> o_allowed_hostname o <> [] -> server_config o = CfgError.
Proof. exact tls_mutually_exclusive. Qed.
Print Assumptions C17_tls_requires.

(* accepted only from a client whose certificate chains to the CA and carries exactly the allowed CN,
   respectively is valid for the allowed hostname *)
Theorem C17_tls_cn : forall (o : tls_opts) (presented chains_ok : bool) (leaves : list leaf),
  o_trusted_ca o = true -> o_allowed_cn o <> [] -> o_allowed_hostname o = [] ->
  accepts o presented chains_ok leaves = true ->
  presented = true /\ chains_ok = true /\ exists l r, leaves = l :: r /\ l_cn l = o_allowed_cn o.
Proof. exact tls_cn. Qed.
Theorem C17_tls_hostname : forall (o : tls_opts) (presented chains_ok : bool) (leaves : list leaf),
  o_trusted_ca o = true -> o_allowed_cn o = [] -> o_allowed_hostname o <> [] ->
  accepts o presented chains_ok leaves = true ->
  presented = true /\ chains_ok = true /\ exists l r, leaves = l :: r /\ l_valid_for l (o_allowed_hostname o) = true.
Proof. exact tls_hostname. Qed.
Print Assumptions C17_tls_cn.

Example C17_example :
  auth_func [115; 51] (Some [66; 69; 65; 82; 69; 82; 32; 115; 51]) = true /\      (* "BEARER s3" *)
  auth_func [115; 51] (Some [98; 101; 97; 114; 101; 114; 32; 83; 51]) = false /\   (* "bearer S3" *)
  auth_func [115; 51] (Some [98; 101; 97; 114; 101; 114; 32; 115; 51; 32]) = false. (* "bearer s3 " *)
Proof. vm_compute. repeat split. Qed.

Print Assumptions C17_missing_header_refused.
Print Assumptions C17_other_services_unaffected.
Print Assumptions C17_override_decides.
Print Assumptions C17_tls_mutually_exclusive.
Print Assumptions C17_tls_hostname.

(* which endpoints get the TLS configuration at all (cmd.resolveURL): exactly the address schemes https and unixs;
   a unix socket is used exactly for unix and unixs *)
Theorem C17_tls_schemes : forall s : scheme, secure s = true <-> s = SchHttps \/ s = SchUnixs.
Proof. exact secure_schemes. Qed.
Theorem C17_unix_schemes : forall s : scheme, unix_socket s = true <-> s = SchUnix \/ s = SchUnixs.
Proof. exact unix_schemes. Qed.
Print Assumptions C17_tls_schemes.
Print Assumptions C17_unix_schemes.
