(* C08 - In-cluster snapshots are faithful, point-in-time and installed atomically.
   The lemmas are in Proofs/SnapshotFacts.v and Proofs/DirProtoFacts.v. *)
From Verif Require Import Model.Snapshot Model.DirProto Proofs.SnapshotFacts Proofs.DirProtoFacts.
Local Open Scope nat_scope.

(* faithful for both formats and across formats: the receiver ends with exactly the store value (content, applied
   index, leader index) the saver pinned at prepare time, whatever the receiver held ([old]) or is configured with
   ([cfg]).  Point in time is by construction, not proved: [prepare] is the identity on an immutable value (a Pebble
   snapshot / checkpoint), so what the saver applies while saving ([during]) cannot reach [pinned]. *)
Theorem C08_faithful : forall (S : Type) (f cfg : sfmt) (s old : S) (during : list (S -> S)),
  let pinned := prepare S s in
  let saver_now := fold_left (fun x g => g x) during s in
  recover S cfg old (save S f pinned) = Some s.
Proof. exact snapshot_faithful. Qed.
Print Assumptions C08_faithful.

(* the stream header names the format and the receiver dispatches on it *)
Theorem C08_header : forall f, parse_header (snap_header f) = Some f.
Proof. exact parse_snap_header. Qed.
Theorem C08_header_length : forall f, length (snap_header f) = 8.
Proof. exact snap_header_length. Qed.
Theorem C08_header_injective : forall f g, snap_header f = snap_header g -> f = g.
Proof. exact snap_header_inj. Qed.

(* all or nothing under a crash: an install cut at ANY primitive file-system / Pebble step, with any survival oracle,
   reopens showing either the whole snapshot (n batches) or what the old DB held *)
Theorem C08_install_atomic_crash : forall n s old pick k, Good s -> live s = Some old -> mem (dbs s old) <= n ->
  exists b, reopen (crash pick (exec (firstn k (expand (HRecover n) s)) (bump (HRecover n) s))) = Some b /\
            (b = n \/ dur (dbs s old) <= b <= mem (dbs s old)).
Proof. exact recover_old_or_new. Qed.
Print Assumptions C08_install_atomic_crash.

(* all or nothing under the stop signal / a broken stream: the live DB, every DB's content, the acknowledged count
   and the "current" file are untouched, and the state stays good (the next install or reopen behaves as usual) *)
Theorem C08_install_stopped : forall clean s old, Good s -> live s = Some old ->
  let s' := exec (expand (HRecoverStop clean) s) (bump (HRecoverStop clean) s) in
  live s' = Some old /\ dbs s' = dbs s /\ ack s' = ack s /\ v_cur s' = v_cur s /\ d_cur s' = d_cur s /\ inodes s' = inodes s.
Proof.
  intros clean s old HG El. destruct (hop_run (HRecoverStop clean) s HG) as (_ & _ & Hl & HP).
  rewrite El in Hl. exact (conj Hl HP).
Qed.
Print Assumptions C08_install_stopped.
Theorem C08_install_stopped_good : forall clean s, Good s ->
  Good (exec (expand (HRecoverStop clean) s) (bump (HRecoverStop clean) s)).
Proof. intros clean s H. exact (proj2 (hop_safe_good (HRecoverStop clean) s H)). Qed.

(* readers (specification; for a sequence that is half consumed when the install happens the implementation deviates, see KNOWN_FINDINGS.json): a read delivers the state it
   started on or fails, and a read started after the install sees the new state *)
Theorem C08_reader_old_or_fail : forall (S : Type) (r r' : rep S) (rd : reader S) v,
  rd = read_start S r -> read_next S r' rd = Some v -> v = r_store S r /\ r_gen S r' = r_gen S r.
Proof. exact reader_old_or_fail. Qed.
Theorem C08_reader_after_install : forall (S : Type) (r : rep S) s,
  read_next S (install S r s) (read_start S r) = None /\
  read_next S (install S r s) (read_start S (install S r s)) = Some s.
Proof. intros S r s. split; [exact (reader_after_install S r s)|exact (lazy_consume_current S (install S r s))]. Qed.
Print Assumptions C08_reader_after_install.
(* the saver's side of an interruption: a stop signal or a failing sink makes the save report an error - a stream that
   ends early is never handed on as a snapshot; a save that reports success is the state pinned at prepare time *)
Theorem C08_interrupted_save_is_an_error : forall (S : Type) (f : sfmt) (pinned : S) (stopped failed : bool),
  stopped || failed = true -> save_to S f pinned stopped failed = SaveError S.
Proof. exact save_interrupted. Qed.
Theorem C08_completed_save_is_the_pinned_state : forall (S : Type) (f : sfmt) (pinned : S) str,
  save_to S f pinned false false = SaveDone S str -> str = save S f pinned.
Proof. exact save_complete. Qed.
Print Assumptions C08_interrupted_save_is_an_error.
Print Assumptions C08_completed_save_is_the_pinned_state.

(* a sequence handed out before an install and consumed only after it delivers the NEW content (repaired code,
   KNOWN_FINDINGS F-C08-lazy-read-after-install: it used to open its iterator on the closed old DB and panic) *)
Theorem C08_lazy_sequence_after_install : forall (S : Type) (r : rep S) (s : S),
  lazy_consume S (install S r s) = Some s /\ lazy_consume S r = Some (r_store S r).
Proof. intros S r s. split; exact (lazy_consume_current S _). Qed.
Print Assumptions C08_lazy_sequence_after_install.

(* non-vacuity: an install of 5 batches over a table holding 2 (1 synced), cut after 3 and 7 steps (old DB: its synced
   batch), after 8 (the second directory sync: the switch) and after all steps (snapshot: 5) *)
Example C08_example :
  let s := run [HOpen; HUpdate; HSync; HUpdate] 100 st0 in
  map (fun k => reopen (crash (fun _ => 0) (exec (firstn k (expand (HRecover 5) s)) (bump (HRecover 5) s)))) [3; 7; 8; 20]
  = [Some 1; Some 1; Some 5; Some 5].
Proof. vm_compute. reflexivity. Qed.

Print Assumptions C08_header.
Print Assumptions C08_header_length.
Print Assumptions C08_header_injective.
Print Assumptions C08_install_stopped_good.
Print Assumptions C08_reader_old_or_fail.
