(* C15 - At most one follower node holds a table's replication lease at a time.
   [lrun lst0 acts]: any interleaving, at the granularity of single metadata-store operations, of lease / renew /
   return calls by any number of nodes with any lease durations (also already expired ones) and any passage of time
   (one global non-decreasing clock). *)
From Verif Require Import Model.LeaseWorker Proofs.LeaseFacts Proofs.LeaseWorkerFacts.

(* in every reachable state at most one node holds an unexpired lease *)
Theorem C15_mutex : forall (acts : list action) (n m : nat),
  let s := fst (lrun lst0 acts) in holder s n -> holder s m -> n = m.
Proof. exact mutex. Qed.
Print Assumptions C15_mutex.

(* the invariant behind it, preserved by every single store operation of every node and by the passage of time *)
Theorem C15_invariant_step : forall (s : lst) (a : action), LInv s -> LInv (fst (lexec s a)).
Proof. exact lexec_inv. Qed.
Print Assumptions C15_invariant_step.
Theorem C15_invariant_init : LInv lst0.
Proof. exact LInv0. Qed.

(* a request succeeds only if the table was unclaimed, already leased to the caller, or the previous lease had
   expired (as of the read, hence still when the write is applied: time only advances) *)
Theorem C15_grant_condition : forall (s : lst) (n : nat), LInv s ->
  snd (lexec s (AApply n)) = RAcquired ->
  exists seen u, pcs s n = PendSet seen u /\ may_take n seen (now s) = true /\ cas_ok (rec s) (seen_ver seen) = true.
Proof. exact grant_condition. Qed.
Print Assumptions C15_grant_condition.

(* of racing requests that read the same lease state at most one succeeds *)
Theorem C15_race_one_winner : forall (s : lst) (n m : nat) seen u seen' u', LInv s -> n <> m ->
  pcs s n = PendSet seen u -> pcs s m = PendSet seen' u' -> seen_ver seen = seen_ver seen' ->
  snd (lexec s (AApply n)) = RAcquired ->
  snd (lexec (fst (lexec s (AApply n))) (AApply m)) = RFailed.
Proof. intros s n m seen u seen' u' HI Hne Hpn Hpm _. exact (acquired_defeats_pending s n m seen u seen' u' HI Hne Hpn Hpm). Qed.
Print Assumptions C15_race_one_winner.

(* returning a lease only ever removes the caller's own lease *)
Theorem C15_return_own : forall (s : lst) (n : nat) (r : lrec), LInv s -> pcs s n = PendDel r ->
  rec (fst (lexec s (AApply n))) = rec s \/
  (rec s = Some r /\ lid r = n /\ rec (fst (lexec s (AApply n))) = None).
Proof. exact return_own. Qed.
Print Assumptions C15_return_own.


(* ---- who ACTS on a lease: the lease routine of the replication worker (replication/worker.go) ----
   The worker of a node replicates only while its [leased] flag is set; the flag is the outcome of the node's last
   finished LeaseTable call.  [wrun wst0 acts]: any interleaving of the workers' calls (read-and-decide, write applied,
   or failure with another error), other nodes' store operations and the clock. *)
Theorem C15_worker_invariant : forall (isw : nat -> bool) (acts : list waction) (s : wst), WInv isw s ->
  Forall (wf_action isw) acts -> WInv isw (wrun s acts).
Proof. exact wrun_inv. Qed.
Theorem C15_worker_invariant_init : forall isw, WInv isw wst0.
Proof. exact WInv0. Qed.
Print Assumptions C15_worker_invariant.

(* a worker with the flag set, still within the lease its last call obtained, holds the lease ... *)
Theorem C15_worker_flag_means_lease : forall (isw : nat -> bool) (s : wst) (n : nat) (u : N), WInv isw s ->
  isw n = true -> flag s n = true -> lastok s n = Some u -> now (base s) <= u -> holder (base s) n.
Proof. exact flag_holder. Qed.
(* ... so two workers with the flag set are the same node, or one of them is past the end of the lease its last
   successful call obtained (the routine renews every interval and takes the lease for four) *)
Theorem C15_workers_exclusive : forall (isw : nat -> bool) (s : wst) (n m : nat), WInv isw s ->
  isw n = true -> isw m = true -> flag s n = true -> flag s m = true ->
  n = m \/ (exists u, lastok s n = Some u /\ u < now (base s)) \/ (exists u, lastok s m = Some u /\ u < now (base s)).
Proof. exact flags_exclusive. Qed.
Print Assumptions C15_workers_exclusive.
(* every call that does not return nil takes the flag down *)
Theorem C15_worker_flag_down_on_error : forall (s : wst) (n : nat), flag (wexec s (WErr n)) n = false.
Proof. exact flag_down_after_failure. Qed.
Theorem C15_worker_flag_down_on_refusal : forall (s : wst) (n : nat) (dur : N) (b : lst),
  lexec (base s) (ALease n dur false) = (b, RRefused) -> flag (wexec s (WCall n dur)) n = false.
Proof. exact flag_down_after_refusal. Qed.

(* non-vacuity: two nodes race for an unclaimed table, the loser retries after expiry *)
Example C15_example :
  snd (lrun lst0 [ALease 1 3600 false; ALease 2 3600 false; AApply 2; AApply 1; ALease 1 3600 false;
                  ATick 4000; ALease 1 3600 false; AApply 1]) =
  [RNone; RNone; RAcquired; RFailed; RRefused; RNone; RNone; RAcquired].
Proof. vm_compute. reflexivity. Qed.

Print Assumptions C15_invariant_init.
Print Assumptions C15_worker_invariant_init.
Print Assumptions C15_worker_flag_means_lease.
Print Assumptions C15_worker_flag_down_on_error.
Print Assumptions C15_worker_flag_down_on_refusal.
