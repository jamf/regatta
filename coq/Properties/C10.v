(* C10 - Revisions follow commit order; linearizable reads see all acknowledged writes.
   Replicas are modelled by the prefix of the committed log they have applied; that a replica's real store is a
   function of that prefix however Raft batched it is C03, that its answers are the plain map's is C01.
   ReadIndex contract (dragonboat, assumed): a SyncRead that starts when a entries are acknowledged is served by a
   replica state with k >= a applied entries. *)
From Verif Require Import Model.Linear Proofs.LinearFacts.

(* every acknowledged put, delete range and transaction - also one whose executed branch is empty - reports a result
   carrying revision = its position (index) in the table's log *)
Theorem C10_revision_is_index : forall (st : spec_state) (e : entry), api_mutation (e_cmd e) = true ->
  r_data (snd (spec_entry st e)) = true /\ r_rev (snd (spec_entry st e)) = e_index e.
Proof. exact mutation_revision. Qed.
Print Assumptions C10_revision_is_index.

(* so the revisions reported for a log are its indices, in log order: ordering the writes by revision is ordering them
   by log position, and the responses are those of the plain map applying the log in that order (C01_refines) *)
Theorem C10_revisions_follow_log : forall (es : list entry) (st : spec_state),
  map r_rev (snd (spec_entries st es)) = map e_index es.
Proof. exact revisions_are_indices. Qed.
Print Assumptions C10_revisions_follow_log.

(* a linearizable read (k >= a by the ReadIndex contract) reflects all a acknowledged writes at any replica lag *)
Theorem C10_linearizable_read : forall (log : list entry) (a k : nat), (a <= k)%nat ->
  replica_state log k = fst (spec_entries (replica_state log a) (firstn (k - a) (skipn a log))).
Proof. exact replica_includes_acknowledged. Qed.
Print Assumptions C10_linearizable_read.

Theorem C10_linearizable_read_exact : forall (log : list entry) (a k : nat) (q : range_req), (a <= k)%nat -> a = length log ->
  replica_read log k q = s_lookup (content (fst (spec_entries spec_init log))) q.
Proof. exact linearizable_read_exact. Qed.
Print Assumptions C10_linearizable_read_exact.

(* Range/Iterator follow the request's flag; read-only transactions always take the linearizable path *)
Theorem C10_read_paths : range_path true = SyncRead /\ range_path false = StaleRead /\ readonly_txn_path = SyncRead.
Proof. exact (conj eq_refl (conj eq_refl eq_refl)). Qed.

(* a default (serializable) read reflects some prefix of the committed log, never a state that did not exist *)
Theorem C10_serializable_read : forall (log : list entry) (k : nat) (q : range_req),
  exists p, (p <= length log)%nat /\ replica_read log k q = s_lookup (content (fst (spec_entries spec_init (firstn p log)))) q.
Proof. exact serializable_read_is_prefix. Qed.
Print Assumptions C10_serializable_read.

(* the engine layer (storage/engine.go): on a leader or a follower, at any lag, a linearizable range read and every
   read-only transaction is served from a state that includes every write acknowledged before it *)
Theorem C10_engine_linearizable_read : forall (log : list entry) (applied committed a : nat) (is_leader : bool), (a <= committed)%nat ->
  let k := serve_at (engine_range_path true is_leader) applied committed in
  (a <= k)%nat /\ replica_state log k = fst (spec_entries (replica_state log a) (firstn (k - a) (skipn a log))).
Proof. exact (fun log applied committed a _ => sync_read_includes_acknowledged log applied committed a). Qed.
Print Assumptions C10_engine_linearizable_read.
Theorem C10_engine_readonly_txn : forall (log : list entry) (applied committed a : nat) (is_leader : bool), (a <= committed)%nat ->
  let k := serve_at (engine_txn_path is_leader) applied committed in
  (a <= k)%nat /\ replica_state log k = fst (spec_entries (replica_state log a) (firstn (k - a) (skipn a log))).
Proof. exact (fun log applied committed a _ => sync_read_includes_acknowledged log applied committed a). Qed.
Print Assumptions C10_engine_readonly_txn.

Example C10_example :
  let e := {| e_index := 9; e_leader := None; e_cmd := CTxn [] [] [] |} in
  ack_of [] e = {| r_value := 1; r_rev := 9; r_resps := []; r_data := true |}.
Proof. vm_compute. reflexivity. Qed.

Print Assumptions C10_read_paths.

From Verif Require Model.Api Proofs.ApiFacts.

(* every acknowledged mutation sent through the API - put, delete range, transaction, also one whose executed branch is
   empty - is answered with exactly the log position its proposal was given, and that is the table's applied index
   afterwards; otherwise it was refused and nothing changed *)
Theorem C10_api_revision_is_log_position :
  forall (sd : SMap.smap spec_state) (idx : N) (q : Api.api_req) (o : Api.api_resp) (sd' : SMap.smap spec_state),
  Api.spec_step sd idx q = (sd', o) -> ApiFacts.is_write q = true ->
  (exists st, o = Api.PErr st /\ sd' = sd) \/
  (ApiFacts.resp_rev o = Some idx /\ exists st', SMap.sget sd' (Api.req_table q) = Some st' /\ applied st' = idx).
Proof. exact ApiFacts.write_revision. Qed.
Print Assumptions C10_api_revision_is_log_position.

(* the non-zero revisions reported along any request sequence strictly increase when log positions do *)
Theorem C10_api_revisions_increase : forall (qs : list (N * Api.api_req)) (sd : SMap.smap spec_state) (lo : N),
  Sorted.StronglySorted N.lt (map fst qs) -> Forall (fun i => lo < i) (map fst qs) ->
  Forall (fun r => lo < r) (ApiFacts.revs_of (snd (Api.spec_run sd qs))) /\
  Sorted.StronglySorted N.lt (ApiFacts.revs_of (snd (Api.spec_run sd qs))).
Proof. exact (ApiFacts.revisions_increase ApiFacts.s_answer_rev). Qed.
Print Assumptions C10_api_revisions_increase.

(* requests that are not writes (reads, read-only transactions) never move any table *)
Theorem C10_api_reads_do_not_advance : forall (sd : SMap.smap spec_state) (idx : N) (q : Api.api_req),
  ApiFacts.is_write q = false -> fst (Api.spec_step sd idx q) = sd.
Proof. exact ApiFacts.not_written. Qed.
Print Assumptions C10_api_reads_do_not_advance.
