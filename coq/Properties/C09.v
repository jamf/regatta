(* C09 - Range reads are sorted, bounded, truthful about 'more', and page losslessly.
   [iterate P ksz vsz maxSize mode limit ps] is iter.go's chunking loop over the pairs ps of the range (in store
   order), generic in the representation P of a pair; the table-level reads of Model/Cmd.v instantiate it. *)
From Coq Require Import Sorted.
From Verif Require Import Model.Fsm Model.Spec.
From Verif Require Import Proofs.SMapFacts Proofs.RangeFacts Proofs.RangeSize Proofs.FsmRefine Proofs.SpecFacts.

Section C09.
  Variable P : Type.
  Variable ksz vsz : P -> N.
  Variable maxSize : N.

  (* the pairs of the range come in ascending key order without duplicates (the content is a strictly sorted map) *)
  Theorem C09_sorted_nodup : forall (U : umap) (lo hi : bytes), sorted U -> StronglySorted blt (map fst (p_scan U lo hi)).
  Proof. exact p_scan_ascending. Qed.

  (* a streamed read delivers, over all its messages, exactly the first 'limit' pairs of the range (all if no limit) *)
  Theorem C09_paging_lossless : forall (m : mode) (limit : Z) (ps : list P), m <> MCount ->
    all_items P (iterate P ksz vsz maxSize m limit ps) = takeZ P limit 0 ps.
  Proof. exact (paging_lossless P ksz vsz maxSize). Qed.

  Theorem C09_returned_is_prefix : forall (limit : Z) (ps : list P), exists rest, ps = takeZ P limit 0 ps ++ rest.
  Proof. exact (takeZ_prefix P). Qed.
  Theorem C09_at_most_limit : forall (limit : Z) (ps : list P), (0 < limit)%Z -> (Z.of_nat (length (takeZ P limit 0 ps)) <= limit)%Z.
  Proof. exact (takeZ_limit P). Qed.
  Theorem C09_everything_when_unlimited : forall (limit : Z) (ps : list P),
    (limit <= 0 \/ Z.of_nat (length ps) <= limit)%Z -> takeZ P limit 0 ps = ps.
  Proof. exact (takeZ_all P). Qed.

  (* counts: the counts of all messages add up to the number of pairs returned (in every mode), and each message's
     count is the number of pairs it carries *)
  Theorem C09_count_exact : forall (m : mode) (limit : Z) (ps : list P),
    total_count P (iterate P ksz vsz maxSize m limit ps) = Z.of_nat (length (takeZ P limit 0 ps)).
  Proof. exact (count_exact P ksz vsz maxSize). Qed.
  Theorem C09_message_counts : forall (m : mode) (limit : Z) (ps : list P), m <> MCount ->
    Forall (fun c => ch_count c = Z.of_nat (length (ch_items c))) (iterate P ksz vsz maxSize m limit ps).
  Proof. exact (chunk_counts P ksz vsz maxSize). Qed.

  (* 'more': every message but the last is flagged; the last is flagged exactly when pairs of the range remain *)
  Theorem C09_more_exact : forall (m : mode) (limit : Z) (ps : list P),
    more_ok P (remains P limit 0 ps) (iterate P ksz vsz maxSize m limit ps).
  Proof. exact (more_exact P ksz vsz maxSize). Qed.
  Theorem C09_remains_iff : forall (limit : Z) (ps : list P),
    remains P limit 0 ps = true <-> (length (takeZ P limit 0 ps) < length ps)%nat.
  Proof. exact (remains_spec P). Qed.

  (* keys-only and count-only variants agree with the full read: same pairs / same total, wherever the cuts fall *)
  Theorem C09_variants_agree : forall (limit : Z) (ps : list P),
    all_items P (iterate P ksz vsz maxSize MKeys limit ps) = all_items P (iterate P ksz vsz maxSize MFull limit ps) /\
    total_count P (iterate P ksz vsz maxSize MCount limit ps) =
      Z.of_nat (length (all_items P (iterate P ksz vsz maxSize MFull limit ps))).
  Proof. intros limit ps. rewrite count_exact, !paging_lossless by discriminate. now split. Qed.

  (* every message stays below the larger of the cut threshold and the largest pair estimate, plus 48 bytes of framing *)
  Theorem C09_message_size : forall (pairMax : N) (m : mode) (limit : Z) (ps : list P),
    (forall p, In p ps -> sf P ksz vsz m p <= pairMax) ->
    Forall (fun c => resp_size P ksz vsz m (ch_items c) (ch_count c) <= bnd maxSize pairMax)
           (iterate P ksz vsz maxSize m limit ps).
  Proof. exact (chunk_sizes P ksz vsz maxSize). Qed.
End C09.
Print Assumptions C09_paging_lossless.
Print Assumptions C09_more_exact.
Print Assumptions C09_count_exact.
Print Assumptions C09_variants_agree.
Print Assumptions C09_message_size.
Print Assumptions C09_sorted_nodup.

(* with the constants of the code: a message of a streamed read over pairs within the API limits, plus the 'more' flag
   (2 bytes) and 512 bytes allowed for the enclosing RangeResponse header (an allowance, derived from nothing), is below
   regattaserver.DefaultMaxGRPCSize (4 MiB: the replication server's message size, which equals gRPC's default receive
   limit, the bound that applies to a KV client) *)
Theorem C09_below_transport_limit :
  bnd fsm_maxRangeSize (key_LatestVersionLen + table_MaxValueLen) + 2 + 512 < server_DefaultMaxGRPCSize.
Proof. vm_compute. reflexivity. Qed.
Print Assumptions C09_below_transport_limit.

(* the unary read is the first message of the streamed read (by definition of the lookup) *)
Theorem C09_unary_is_first_message : forall (U : umap) (r : range_req) (hi : bytes), rq_end r = Some hi ->
  s_lookup U r = hd empty_resp (s_iterator_lookup U r).
Proof. intros U r hi H. unfold s_lookup, s_iterator_lookup, lookup, iterator_lookup, range_lookup. now rewrite H. Qed.
Print Assumptions C09_unary_is_first_message.

(* and the implementation-level reads over the encoded key space are exactly these *)
Theorem C09_reads_refine : forall (ol od : option N) (U : umap) (q : range_req),
  f_lookup (repr U ol od) q = s_lookup U q /\ f_iterator_lookup (repr U ol od) q = s_iterator_lookup U q.
Proof. exact (fun ol od U q => conj (lookup_refines ol od U q) (iterator_lookup_refines ol od U q)). Qed.
Print Assumptions C09_reads_refine.

Example C09_example :
  let it := iterate nat (fun _ => 1) (fun _ => 1) 1000 MFull 2 [1; 2; 3]%nat in
  all_items nat it = [1; 2]%nat /\ map ch_more it = [true].
Proof. vm_compute. split; reflexivity. Qed.

From Verif Require Model.Api Proofs.ApiFacts Model.Validate.
(* what KV.Range and KV.IterateRange hand to the client for an accepted request to an existing table IS the state
   machine's answer - one message for the unary read, all messages for the streamed one - untouched by the layers in
   between (so every theorem above about lookups and iterator lookups holds for what the client receives), and the
   request changes nothing *)
Theorem C09_api_range_is_the_state_machines_answer :
  forall (sd : SMap.smap spec_state) (idx : N) (t : bytes) (r : range_req) (lin : bool) (f : Api.filters) (st : spec_state),
  sget sd t = Some st -> Validate.range_status (Api.range_feat true t r f) = Validate.SOk ->
  Api.spec_step sd idx (Api.QRange t r lin f) = (sd, Api.PRange (s_lookup (content st) r)) /\
  Api.spec_step sd idx (Api.QIterate t r lin f) = (sd, Api.PIter (s_iterator_lookup (content st) r)).
Proof. exact ApiFacts.api_range_answer. Qed.
Print Assumptions C09_api_range_is_the_state_machines_answer.
