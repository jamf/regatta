(* C19 - The gossiped shard view converges and never regresses to an older leader. *)
From Coq Require Import Permutation.
From Verif Require Import Model.View Proofs.ViewFacts.

(* [consistent] is what Raft guarantees about the updates a node can ever see for one shard: two updates with
   the same config-change index carry the same membership, two updates that name a leader in the same term name
   the same leader. *)

(* The view of every shard does not depend on the order in which the same updates arrive ... *)
Theorem C19_order_independent : forall (f : smap) (us vs : list (N * sview)) (id : N),
  Permutation us vs -> consistent (f id :: for_shard id us) -> update f us id = update f vs id.
Proof. exact update_order_independent. Qed.
Print Assumptions C19_order_independent.

(* ... nor on repetition or grouping: it is a function of the SET of updates seen *)
Theorem C19_set_determined : forall (c : sview) (us vs : list sview),
  (forall x, In x (c :: us) <-> In x (c :: vs)) -> consistent (c :: us) ->
  fold_left merge us c = fold_left merge vs c.
Proof. exact fold_set_determined. Qed.
Print Assumptions C19_set_determined.

Theorem C19_duplicates_harmless : forall (c : sview) (us : list sview),
  consistent (c :: us) -> fold_left merge (us ++ us) c = fold_left merge us c.
Proof. exact fold_dup. Qed.
Print Assumptions C19_duplicates_harmless.

(* splitting the updates across several calls is the same as one call (no hypothesis needed) *)
Theorem C19_split_updates : forall (f : smap) (us vs : list (N * sview)) (id : N),
  update (update f us) vs id = update f (us ++ vs) id.
Proof. exact update_split. Qed.
Print Assumptions C19_split_updates.

(* every entry point of the cluster layer (Raft event listener, memberlist join/leave/update callbacks, push/pull
   delegate) folds one list of updates into the view and does nothing else to it: whatever the events, the view is that
   of all the updates seen, and two nodes that saw the same updates agree *)
Theorem C19_cluster_events : forall (events : list (list (N * sview))) (f : smap) (id : N),
  fold_left update events f id = update f (concat events) id.
Proof. exact events_fold. Qed.
Theorem C19_cluster_events_order_independent : forall (ev1 ev2 : list (list (N * sview))) (f : smap) (id : N),
  Permutation (concat ev1) (concat ev2) -> consistent (f id :: for_shard id (concat ev1)) ->
  fold_left update ev1 f id = fold_left update ev2 f id.
Proof. intros ev1 ev2 f id Hp Hc. rewrite !events_fold. now apply update_order_independent. Qed.
Print Assumptions C19_cluster_events_order_independent.

(* gossip state exchange: merging a peer's already merged view equals having received the peer's updates *)
Theorem C19_merge_remote_view : forall (c : sview) (us vs : list sview),
  consistent (zero :: c :: us ++ vs) ->
  merge (fold_left merge us c) (fold_left merge vs zero) = fold_left merge (us ++ vs) c.
Proof. exact (fun c us vs _ => merge_remote c us vs). Qed.
Print Assumptions C19_merge_remote_view.

(* what is retained: the membership with the highest config-change index and the leader with the highest term
   among the updates that name a leader (no hypothesis needed) *)
Theorem C19_result : forall (c : sview) (us : list sview),
  let r := fold_left merge us c in
  (exists x, In x (c :: us) /\ projR r = projR x) /\ (forall x, In x (c :: us) -> cci x <= cci r) /\
  (exists x, In x (c :: us) /\ projL r = projL x) /\
  (forall x, In x (c :: us) -> leader x <> noLeader -> leader r <> noLeader /\ term x <= term r) /\
  (leader r = noLeader -> projL r = projL c).
Proof. exact fold_result. Qed.
Print Assumptions C19_result.

(* an update with no leader or a term that is not newer never replaces a known leader; a leader is never forgotten *)
Theorem C19_older_never_replaces : forall c u : sview,
  leader c <> noLeader -> (leader u = noLeader \/ term u <= term c) ->
  leader (merge c u) = leader c /\ term (merge c u) = term c.
Proof. exact merge_keeps_leader. Qed.
Print Assumptions C19_older_never_replaces.

Theorem C19_leader_never_forgotten : forall c u : sview, leader c <> noLeader -> leader (merge c u) <> noLeader.
Proof. exact merge_leader_stays. Qed.
Print Assumptions C19_leader_never_forgotten.

(* the reported term never moves backwards, for every sequence of updates from every reachable view
   ([okL]: a view without leader has term 0 - true of the initial view and preserved by every merge) *)
Theorem C19_term_never_regresses : forall (f : smap) (us : list (N * sview)) (id : N),
  okL (f id) -> term (f id) <= term (update f us id) /\ okL (update f us id).
Proof. intros f us id. rewrite update_shard. apply fold_term_monotone. Qed.
Print Assumptions C19_term_never_regresses.

Theorem C19_initial_view_ok : okL (empty_map 0) /\ forall id, empty_map id = zero.
Proof. exact (conj (fun _ => eq_refl) (fun _ => eq_refl)). Qed.

(* non-vacuity: a consistent, non-trivial multiset; and the hypothesis is necessary (order matters without it) *)
Definition ex_a := {| replicas := 7; cci := 3; leader := 2; term := 5 |}.
Definition ex_b := {| replicas := 8; cci := 4; leader := 0; term := 9 |}.
Definition ex_c := {| replicas := 7; cci := 3; leader := 3; term := 6 |}.
Example C19_consistent_satisfiable : consistent [zero; ex_a; ex_b; ex_c] /\
  fold_left merge [ex_a; ex_b; ex_c] zero = {| replicas := 8; cci := 4; leader := 3; term := 6 |}.
Proof.
  split; [|reflexivity].
  (* the only two views with equal cci, ex_a and ex_c, have equal replicas, and no two views that name a leader
     share a term: in each of the 16 pairs either the components are equal or a premise of consR/consL is false *)
  intros a b Ha Hb. simpl in Ha, Hb.
  repeat (destruct Ha as [<-|Ha]; [|]); try contradiction;
  repeat (destruct Hb as [<-|Hb]; [|]); try contradiction;
  (split; [intros E|intros L1 L2 E]; simpl in *; (reflexivity || discriminate)).
Qed.
Definition ex_d := {| replicas := 7; cci := 3; leader := 9; term := 5 |}.   (* same term as ex_a, other leader *)
Example C19_inconsistent_order_matters :
  fold_left merge [ex_a; ex_d] zero <> fold_left merge [ex_d; ex_a] zero.
Proof. discriminate. Qed.

Print Assumptions C19_cluster_events.
Print Assumptions C19_initial_view_ok.
