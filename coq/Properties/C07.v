(* C07 - Restoring a table stream reproduces exactly the content that was captured. *)
From Verif Require Import Model.Framing Model.Restore.
From Verif Require Import Proofs.SMapFacts Proofs.FramingFacts Proofs.RestoreFacts Model.BackupGate Proofs.BackupGateFacts.

(* the command stream written to a snapshot file and shipped in chunks is read back as the same messages with the
   same boundaries (the empty ones excepted, which the writer skips), for every chunking and every compressor with the
   round-trip property *)
Theorem C07_stream_faithful : forall (compress decompress : bytes -> bytes), (forall s, decompress (compress s) = s) ->
  forall (ms : list bytes) (sizes : list nat), Forall msg_ok ms ->
  unframe (length ms) (decompress (unchunk (chunks sizes (compress (frame ms))))) =
  Some (filter (fun m => negb (Nat.eqb (length m) 0)) ms).
Proof. exact compressed_framing_roundtrip. Qed.
Print Assumptions C07_stream_faithful.

(* loading batches: for EVERY in-memory-log-size setting (0 included) the pairs proposed are exactly the pairs of the
   stream - none lost, duplicated, added or reordered *)
Theorem C07_batches_lossless : forall (maxInMem : N) (ms : list smsg),
  concat (map p_batch (read_into_table maxInMem ms)) = kvs_of ms.
Proof. exact batches_lossless. Qed.
Print Assumptions C07_batches_lossless.

(* the leader index declared by the stream's final message is the one the restored table records *)
Theorem C07_declared_index : forall (maxInMem : N) (U : umap) (size_of : bytes * bytes -> N) (i : N),
  last_leader (read_into_table maxInMem (table_stream size_of U (Some i))) = Some i.
Proof. exact declared_leader_index. Qed.
Print Assumptions C07_declared_index.

(* loaded into a fresh (empty) shard - restore always creates one, so nothing of the previous content survives -
   the table holds exactly the captured content and records the declared index, whatever the threshold *)
Theorem C07_restore_exact : forall (maxInMem : N) (size_of : bytes * bytes -> N) (U : umap) (i : N), sorted U ->
  restored (read_into_table maxInMem (table_stream size_of U (Some i))) = (U, i).
Proof. exact restore_exact. Qed.
Print Assumptions C07_restore_exact.

Theorem C07_backup_restore_exact : forall (maxInMem : N) (size_of : bytes * bytes -> N) (U : umap), sorted U ->
  fst (restored (read_into_table maxInMem (table_stream size_of U None))) = U.
Proof. exact (fun mx size_of U => restored_content mx size_of U None). Qed.
Print Assumptions C07_backup_restore_exact.

(* point in time: commandSnapshot reads the index and iterates the pairs from ONE store value (a Pebble snapshot),
   so the stream's content is the content at exactly the declared index: in the model the stream is a function of a
   single (U, i); that the implementation takes both from one snapshot while writes continue is exercised by the
   correspondence run with a concurrent writer. *)

(* a backup file whose checksum does not match its manifest is refused: the backup client (Backup.Restore) uploads a
   file only if its checksum equals the manifest entry - whatever the hash function; the run reports success exactly
   when every file matches; the uploads are exactly the tables before the first mismatch (that table and all later ones
   are not touched) *)
Theorem C07_only_matching_files_uploaded : forall (hash : bytes -> N) (ts : list btab) (n : N) (f : bytes),
  In (n, f) (fst (restore_client hash ts)) -> exists t, In t ts /\ b_name t = n /\ b_file t = f /\ hash f = b_sum t.
Proof. exact uploads_match. Qed.
Theorem C07_restore_succeeds_iff_all_match : forall (hash : bytes -> N) (ts : list btab),
  snd (restore_client hash ts) = true <-> forallb (matches hash) ts = true.
Proof. exact success_iff_all_match. Qed.
Theorem C07_mismatch_stops_the_run : forall (hash : bytes -> N) (ts : list btab),
  map fst (fst (restore_client hash ts)) = map b_name (firstn (length (fst (restore_client hash ts))) ts) /\
  (snd (restore_client hash ts) = false ->
   exists t, nth_error ts (length (fst (restore_client hash ts))) = Some t /\ matches hash t = false).
Proof. exact uploads_are_matching_prefix. Qed.
Print Assumptions C07_only_matching_files_uploaded.
Print Assumptions C07_mismatch_stops_the_run.

Example C07_example :
  restored (read_into_table 1200 (table_stream (fun _ => 270) [([1], [10]); ([2], [20]); ([3], [30])] (Some 7))) =
  ([([1], [10]); ([2], [20]); ([3], [30])], 7).
Proof. vm_compute. reflexivity. Qed.

Print Assumptions C07_restore_succeeds_iff_all_match.
