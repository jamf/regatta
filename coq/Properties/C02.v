(* C02 - Transactions are atomic if/then/else: one branch, in order, all or nothing. *)
From Verif Require Import Model.Fsm Model.Spec.
From Verif Require Import Proofs.FsmRefine Proofs.SpecFacts.

(* the implementation-level transaction (encoded keys, bounded iterators, indexed batch) is the plain map's *)
Theorem C02_refines : forall (ol od : option N) (U : umap) (cs : list compare) (su fa : list request_op),
  f_handle (repr U ol od) (CTxn cs su fa) = (repr (fst (s_handle U (CTxn cs su fa))) ol od, snd (s_handle U (CTxn cs su fa))).
Proof. exact (fun ol od U cs su fa => handle_refines ol od (CTxn cs su fa) U). Qed.
Print Assumptions C02_refines.

(* exactly one branch runs, chosen by the conjunction of the predicates on the state immediately before *)
Theorem C02_branch : forall (U : umap) (cs : list compare) (su fa : list request_op),
  handle_txn umap p_get p_set p_del p_delrange p_scan U cs su fa =
  let ok := txn_compare umap p_get p_scan U cs in
  (fst (txn_ops umap p_get p_set p_del p_delrange p_scan U (if ok then su else fa)),
   (ok, snd (txn_ops umap p_get p_set p_del p_delrange p_scan U (if ok then su else fa)))).
Proof. exact (txn_branch umap p_get p_set p_del p_delrange p_scan). Qed.
Print Assumptions C02_branch.

(* predicate semantics: a predicate on a missing key or an empty range is false; a range predicate holds iff every
   pair of the range satisfies the comparison; the stored value is the left-hand side *)
Theorem C02_compare_semantics : forall (U : umap) (cs : list compare),
  txn_compare umap p_get p_scan U cs = true <-> Forall (holds U) cs.
Proof. exact txn_compare_holds. Qed.
Print Assumptions C02_compare_semantics.

Theorem C02_compare_single : forall (c : compare) (v : bytes),
  cmp_single c v = match cm_value c with
                   | None => true
                   | Some t => match cm_result c with
                               | CEq => beqb v t | CNe => negb (beqb v t) | CGt => bltb t v | CLt => bltb v t
                               end
                   end.
Proof. exact cmp_single_spec. Qed.
Print Assumptions C02_compare_single.

(* operations run in order, each observing the effects of the earlier ones; the n-th response belongs to the n-th
   operation (an operation whose oneof is unset produces none) *)
Theorem C02_in_order : forall (a : list request_op) (U : umap) (b : list request_op),
  txn_ops umap p_get p_set p_del p_delrange p_scan U (a ++ b) =
  let '(U1, r1) := txn_ops umap p_get p_set p_del p_delrange p_scan U a in
  let '(U2, r2) := txn_ops umap p_get p_set p_del p_delrange p_scan U1 b in (U2, r1 ++ r2).
Proof. exact (txn_ops_app umap p_get p_set p_del p_delrange p_scan). Qed.
Print Assumptions C02_in_order.

Theorem C02_one_response_per_operation : forall (l : list request_op) (U : umap),
  length (snd (txn_ops umap p_get p_set p_del p_delrange p_scan U l)) = length (filter op_set l).
Proof. exact (txn_ops_length umap p_get p_set p_del p_delrange p_scan). Qed.
Print Assumptions C02_one_response_per_operation.

(* a read-only transaction leaves the state untouched and returns what the read-only path returns;
   the read-only path over the encoded store is the plain map's *)
Theorem C02_readonly_agrees : forall (U : umap) (cs : list compare) (su fa : list request_op),
  all_ranges su = true -> all_ranges fa = true ->
  handle_txn umap p_get p_set p_del p_delrange p_scan U cs su fa = (U, s_lookup_txn U cs su fa).
Proof. exact (txn_readonly_agrees umap p_get p_set p_del p_delrange p_scan). Qed.
Print Assumptions C02_readonly_agrees.

Theorem C02_readonly_path_refines : forall (ol od : option N) (U : umap) (cs : list compare) (su fa : list request_op),
  f_lookup_txn (repr U ol od) cs su fa = s_lookup_txn U cs su fa.
Proof. exact lookup_txn_refines. Qed.
Print Assumptions C02_readonly_path_refines.

(* the outputs of C01_refines, for scenarios with transactions at any position of an apply batch.  All or nothing
   holds by construction: an apply call produces ONE new store value (Fsm.Update_gen); durability of that single step
   under crashes is C04 *)
Theorem C02_embedded : forall (steps : list step) (ol od : option N) (st : spec_state),
  Forall wf_step steps -> u64o ol -> u64o od -> applied st = dflt ol -> leader st = dflt od ->
  fsm_steps (repr (content st) ol od) steps = spec_steps st steps.
Proof. exact steps_outputs_refine. Qed.
Print Assumptions C02_embedded.

Example C02_example :
  let U := [([97], [5]); ([98], [6])] in
  let t := CTxn [ {| cm_result := CGt; cm_key := [97]; cm_end := Some [0]; cm_value := Some [4] |} ]
                [OPut {| pt_key := [97]; pt_val := [9]; pt_prev := true |};
                 ORange {| rq_key := [97]; rq_end := None; rq_limit := 0; rq_keys_only := false; rq_count_only := false |}]
                [ODel {| dl_key := [97]; dl_end := None; dl_prev := false; dl_count := false |}] in
  s_handle U t = ([([97], [9]); ([98], [6])],
                  (1, [RPut (Some ([97], [5])); RRange {| rr_kvs := [([97], [9])]; rr_more := false; rr_count := 1 |}])).
Proof. vm_compute. reflexivity. Qed.

From Verif Require Model.Api Proofs.ApiFacts.

(* a read-only transaction is never proposed (ActiveTable.Txn: IsReadonly -> linearizable read).  It returns what
   proposing it at any log position would have returned, and proposing it would not have changed the content *)
Theorem C02_api_readonly_txn_as_if_proposed : forall (st : spec_state) (cs : list compare) (su fa : list request_op) (idx : N),
  Validate.is_readonly (map Api.op_feat su) (map Api.op_feat fa) = true ->
  let '(st', res) := Api.s_propose st idx (CTxn cs su fa) in
  content st' = content st /\
  (r_value res =? Constants.fsm_ResultSuccess, r_resps res) = s_lookup_txn (content st) cs su fa.
Proof. exact ApiFacts.readonly_txn_as_if_proposed. Qed.
Print Assumptions C02_api_readonly_txn_as_if_proposed.
