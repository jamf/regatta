(* One poll of the replication pipeline (Model/Pipeline.v): the stream of C06 consumed by the worker applies exactly the
   leader's entries after the follower's recorded index, each once and in order, and leaves the recorded index at the
   leader's applied index - the effect the step [APoll] of Model/Replication.v (C05) has with n = applied - r.  No lemma
   relates the two models: [poll_exact] concludes [apply_seq f es _] for the entries es of this log after r, and APoll
   applies [propose] (which has the effect of one apply_seq: ReplicationFacts.propose_flat) to
   [firstn n (skipn r (s_log s))] of its own. *)
From Coq Require Import Lia.
From Verif Require Import Model.Pipeline Proofs.BytesFacts Proofs.LogReaderFacts.

Section Pipe.
  Variables (S C : Type) (app : S -> C -> S) (cmd_of : rcmd -> C).
  Notation applyl := (apply_labelled S C app cmd_of).
  Notation pstream := (propose_stream S C app cmd_of).
  Notation consume := (consume S C app cmd_of).
  Definition cmds (cs : list (rcmd * N)) : list C := map (fun p => cmd_of (fst p)) cs.
  Definition lbl (f : fol S) (cs : list (rcmd * N)) : nat := N.to_nat (snd (last cs (RDummy, N.of_nat (f_lidx S f)))).

  (* proposing is an action of the list monoid on follower states: that is why the cutting does not matter *)
  Lemma applyl_app f a b : applyl (applyl f a) b = applyl f (a ++ b).
  Proof.
    unfold apply_labelled. cbn [f_store f_lidx]. f_equal.
    - now rewrite map_app, fold_left_app.
    - destruct b as [|x b]; [rewrite app_nil_r; cbn; apply Nat2N.id|].
      symmetry. do 2 f_equal. apply last_app_cons.
  Qed.
  Lemma applyl_nil f : applyl f [] = f.
  Proof. destruct f. unfold apply_labelled. cbn. now rewrite Nat2N.id. Qed.
  Lemma pstream_one sizes : forall cs f, pstream f cs sizes = applyl f cs.
  Proof.
    induction sizes as [|k ks IH]; intros [|c cs] f; cbn [propose_stream]; rewrite ?applyl_nil; try reflexivity.
    now rewrite IH, applyl_app, firstn_skipn.
  Qed.

  Lemma propose_stream_flat sizes : forall cs f,
    f_store S (pstream f cs sizes) = fold_left app (cmds cs) (f_store S f) /\
    f_lidx S (pstream f cs sizes) = match cs with [] => f_lidx S f | _ => lbl f cs end.
  Proof. intros cs f. rewrite pstream_one. destruct cs; split; try reflexivity. apply Nat2N.id. Qed.

  Lemma consume_one ms : forall sizes f, consume f ms sizes = applyl f (cmds_of ms).
  Proof.
    induction ms as [|m r IH]; intros sizes f; cbn [Pipeline.consume cmds_of]; [symmetry; apply applyl_nil|].
    destruct m; try apply IH. now rewrite IH, pstream_one, applyl_app.
  Qed.
End Pipe.

Lemma consec_has m l : consec m l -> forall i, m < i <= m + N.of_nat (length l) -> exists e, In e l /\ eidx e = i.
Proof.
  revert m. induction l as [|e r IH]; intros m Hc i Hi; [simpl in Hi; lia|].
  destruct Hc as [He Hc]. destruct (N.eq_dec i (m + 1)) as [->|Hne].
  - exists e. split; [left; reflexivity|exact He].
  - destruct (IH (m + 1) Hc i) as (x & Hx & Hi'); [simpl length in Hi; lia|].
    exists x. split; [right; exact Hx|exact Hi'].
Qed.

Lemma range_full_length l applied F : wf_log l -> applied <= llast l -> marker l < F <= applied + 1 ->
  F + N.of_nat (length (range_entries l F (applied + 1))) = applied + 1.
Proof. intros Hwf Happ HF. rewrite (range_length l Hwf) by lia. lia. Qed.

Section Poll.
  Variables (S C : Type) (app : S -> C -> S) (cmd_of : rcmd -> C).
  Variable l : rlog.
  Variable applied : N.
  Hypothesis Hwf : wf_log l.
  Hypothesis Happ : applied <= llast l.
  Variable q : cache -> lrange -> (list lentry + qerr) * cache.
  Variable Inv : cache -> Prop.
  Hypothesis Hq : forall c F, Inv c -> 1 <= F -> marker l < F <= applied + 1 \/ F <= marker l ->
     exact_answer l applied F (fst (q c {| rfirst := F; rlast := applied + 1 |})) /\
     Inv (snd (q c {| rfirst := F; rlast := applied + 1 |})).

  Definition ecmd (e : lentry) : C := cmd_of (fst (entry_to_command e)).

  Theorem poll_exact fuel c (f : fol S) (sizes : list (list nat)) :
    let r := f_lidx S f in
    let F := N.of_nat r + 1 in
    Inv c -> marker l < F <= applied + 1 ->
    (length (range_entries l F (applied + 1)) < fuel)%nat ->
    let ms := fst (replicate_loop fuel q c applied {| rfirst := F; rlast := applied + 1 |}) in
    let es := map ecmd (range_entries l F (applied + 1)) in
    consume S C app cmd_of f ms sizes = apply_seq S C app f es (r + length es) /\ (r + length es)%nat = N.to_nat applied.
  Proof.
    intros r F Hc HF Hfuel ms es.
    destruct (stream_exact l applied Hwf Happ q Inv Hq fuel c F Hc HF Hfuel) as [Hcmds _]. fold ms in Hcmds.
    pose proof (range_full_length l applied F Hwf Happ HF) as Hlen.
    assert (Hsum : (r + length es)%nat = N.to_nat applied).
    { unfold es. rewrite map_length. unfold F in *. lia. }
    split; [|exact Hsum].
    rewrite consume_one, Hcmds, Hsum. unfold apply_labelled, apply_seq, es, ecmd. rewrite !map_map. f_equal.
    (* the label of the last command is the index of the last entry of the range, which is applied *)
    destruct (range_entries l F (applied + 1)) as [|e0 R] eqn:ER.
    - cbn in Hsum |- *. lia.
    - rewrite (last_map_ne _ _ e0) by discriminate. cbn [entry_to_command snd].
      rewrite <- ER, (range_last l Hwf) by (unfold F in *; cbn [length] in Hlen; lia). lia.
  Qed.
End Poll.

(* the other way a follower catches up, snapshot recovery: the leader's table at any index is a sorted map,
   which is what C07's restore theorem asks of the state it streams *)
From Verif Require Import Model.Spec Proofs.SpecFacts Proofs.SMapFacts.

Definition app_cmd (U : umap) (c : command) : umap := fst (s_handle U c).

Lemma state_at_sorted (L : list command) (i : nat) : sorted (state_at umap command app_cmd [] L i).
Proof.
  unfold state_at. generalize (firstn i L). intros l.
  assert (G : forall U, sorted U -> sorted (fold_left app_cmd l U)).
  { induction l as [|c r IH]; intros U HU; simpl; [exact HU|]. apply IH. apply s_handle_sorted. exact HU. }
  apply G. constructor.
Qed.
