From Verif Require Import Model.Auth Proofs.BytesFacts.

(* strings.Cut at the first space, both ways *)
Lemma cut_space_spec l : forall a b, cut_space l = Some (a, b) -> l = a ++ 32 :: b /\ ~ In 32 a.
Proof.
  induction l as [|c r IH]; intros a b H; [discriminate|]. simpl in H.
  destruct (N.eqb_spec c 32) as [->|Hc].
  - injection H as <- <-. split; [reflexivity|intros []].
  - destruct (cut_space r) as [[a' b']|] eqn:E; [|discriminate]. injection H as <- <-.
    destruct (IH a' b' eq_refl) as [-> Hn]. split; [reflexivity|].
    intros [H|H]; [congruence|contradiction].
Qed.

Lemma cut_space_app a b : ~ In 32 a -> cut_space (a ++ 32 :: b) = Some (a, b).
Proof.
  induction a as [|c a IH]; intros H; simpl; [reflexivity|].
  destruct (N.eqb_spec c 32) as [->|_].
  - destruct H. now left.
  - rewrite IH; [reflexivity|]. intros H'. apply H. now right.
Qed.

Lemma auth_func_header token scheme t : token <> [] -> ~ In 32 scheme ->
  auth_func token (Some (scheme ++ 32 :: t)) = eq_fold scheme bearer && beqb token t.
Proof.
  intros Hne Hs. destruct token; [congruence|]. unfold auth_func, auth_from_md.
  destruct (scheme ++ 32 :: t) eqn:E; [destruct scheme; discriminate|]. rewrite <- E, (cut_space_app _ _ Hs).
  now destruct (eq_fold scheme bearer).
Qed.

Theorem token_required token header : token <> [] -> auth_func token header = true ->
  exists scheme, header = Some (scheme ++ 32 :: token) /\ eq_fold scheme bearer = true /\ ~ In 32 scheme.
Proof.
  intros Hne H. unfold auth_func in H. destruct token as [|t0 tr]; [congruence|].
  unfold auth_from_md in H. destruct header as [val|]; [|discriminate]. destruct val as [|v0 vr]; [discriminate|].
  destruct (cut_space (v0 :: vr)) as [[scheme tok]|] eqn:Ec; [|discriminate].
  destruct (eq_fold scheme bearer) eqn:Es; [|discriminate].
  apply beqb_eq in H. subst tok. exists scheme.
  destruct (cut_space_spec _ _ _ Ec) as [-> Hn]. auto.
Qed.

Corollary wrong_token_refused token scheme t : token <> [] -> t <> token -> ~ In 32 scheme ->
  auth_func token (Some (scheme ++ 32 :: t)) = false.
Proof.
  intros Hne Ht Hs. rewrite auth_func_header by assumption.
  rewrite (proj2 (beqb_neq token t)) by congruence. apply andb_false_r.
Qed.

Theorem missing_header_refused token : token <> [] -> auth_func token None = false.
Proof. destruct token; [congruence|reflexivity]. Qed.

Theorem no_token_configured_allows header : auth_func [] header = true.
Proof. reflexivity. Qed.

Theorem tls_requires o mode vp : server_config o = Cfg mode vp ->
  (o_trusted_ca o = true \/ o_client_cert_auth o = true -> mode = RequireAndVerifyClientCert) /\
  (vp = true <-> o_allowed_cn o <> [] \/ o_allowed_hostname o <> []).
Proof.
  unfold server_config. intros H. split.
  - assert (Hm : mode = if o_trusted_ca o || o_client_cert_auth o then RequireAndVerifyClientCert else NoClientCert)
      by (destruct (o_allowed_cn o), (o_allowed_hostname o); congruence).
    intros [E|E]; rewrite Hm, E; [reflexivity|now rewrite orb_true_r].
  - destruct (o_allowed_cn o) as [|c cn], (o_allowed_hostname o) as [|h hn]; [| | |discriminate H];
      injection H as _ <-.
    + (* neither *) split; [discriminate|intros [E|E]; congruence].
    + (* hostname *) split; [intros _; right; discriminate|reflexivity].
    + (* CN *) split; [intros _; left; discriminate|reflexivity].
Qed.

Theorem tls_mutually_exclusive o : o_allowed_cn o <> [] -> o_allowed_hostname o <> [] -> server_config o = CfgError.
Proof. unfold server_config. destruct (o_allowed_cn o), (o_allowed_hostname o); congruence. Qed.

Theorem tls_cn o presented chains_ok leaves : o_trusted_ca o = true -> o_allowed_cn o <> [] -> o_allowed_hostname o = [] ->
  accepts o presented chains_ok leaves = true ->
  presented = true /\ chains_ok = true /\ exists l r, leaves = l :: r /\ l_cn l = o_allowed_cn o.
Proof.
  intros Hca Hcn Hhn. unfold accepts, server_config. rewrite Hhn, Hca.
  destruct (o_allowed_cn o) as [|c cn] eqn:Ecn; [congruence|]. simpl.
  destruct presented, chains_ok; try discriminate. simpl. intros H2.
  repeat split. unfold verify_peer in H2. rewrite Hhn, Ecn in H2.
  destruct leaves as [|l r]; [discriminate|]. exists l, r. split; [reflexivity|]. symmetry. now apply beqb_eq.
Qed.

Theorem tls_hostname o presented chains_ok leaves : o_trusted_ca o = true -> o_allowed_cn o = [] -> o_allowed_hostname o <> [] ->
  accepts o presented chains_ok leaves = true ->
  presented = true /\ chains_ok = true /\ exists l r, leaves = l :: r /\ l_valid_for l (o_allowed_hostname o) = true.
Proof.
  intros Hca Hcn Hhn. unfold accepts, server_config. rewrite Hcn, Hca.
  destruct (o_allowed_hostname o) as [|h hn] eqn:Ehn; [congruence|]. simpl.
  destruct presented, chains_ok; try discriminate. simpl. intros H2.
  repeat split. unfold verify_peer in H2. rewrite Ehn in H2.
  destruct leaves as [|l r]; [discriminate|]. exists l, r. split; [reflexivity|exact H2].
Qed.
