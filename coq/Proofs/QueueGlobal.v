(* storage/queue.go: the per-heap handler lemmas of QueueFacts composed over the whole table map (GInv: HInv of all
   queued waiters together).  A handler works on one table's heap; the rest of the map rides along as its frame o. *)
From Coq Require Import Permutation.
From Verif Require Import Model.Queue Proofs.HeapFacts Proofs.QueueFacts.

Definition all_items (hs : list (N * list item)) : list item := concat (map snd hs).
Definition keys (hs : list (N * list item)) : list N := map fst hs.

Record GInv (s : qstate) : Prop := {
  g_keys : NoDup (keys (heaps s));
  g_items : HInv (all_items (heaps s)) (chans s) (answers s)
}.

Lemma all_items_cons k h r : all_items ((k, h) :: r) = h ++ all_items r.
Proof. reflexivity. Qed.

(* The table map as one heap and the rest: hget reads, and hset writes, the first entry for t; o is everything else. *)
Lemma table_split hs t : exists o, Permutation (all_items hs) (hget hs t ++ o) /\
  forall h, Permutation (all_items (hset hs t h)) (h ++ o).
Proof.
  induction hs as [|[k h0] r (o & H1 & H2)]; cbn [hget hset].
  - exists []. split; [constructor|]. intros h. apply Permutation_refl.
  - destruct (k =? t).
    + exists (all_items r). split; [|intros h]; apply Permutation_refl.
    + exists (h0 ++ o). rewrite !all_items_cons. split; [|intros h].
      * eapply perm_trans; [apply Permutation_app_head, H1|apply Permutation_app_swap_app].
      * eapply perm_trans; [apply Permutation_app_head, H2|apply Permutation_app_swap_app].
Qed.

Lemma in_hget hs t : incl (hget hs t) (all_items hs).
Proof.
  destruct (table_split hs t) as (o & H1 & _). intros y Hy.
  apply (Permutation_in _ (Permutation_sym H1)), in_or_app. now left.
Qed.
Lemma in_hset hs t h : incl (all_items (hset hs t h)) (h ++ all_items hs).
Proof.
  destruct (table_split hs t) as (o & H1 & H2). intros y Hy. apply (Permutation_in _ (H2 h)), in_app_or in Hy.
  apply in_or_app. destruct Hy as [Hy|Hy]; [now left|right].
  apply (Permutation_in _ (Permutation_sym H1)), in_or_app. now right.
Qed.

Lemma keys_hset hs t h k : In k (keys (hset hs t h)) -> k = t \/ In k (keys hs).
Proof.
  induction hs as [|[k0 h0] r IH]; cbn [hset].
  { intros [<-|[]]. now left. }
  destruct (k0 =? t); cbn [keys map fst In]; (intros [E|H]; [right; now left|]).
  - right. now right.
  - destruct (IH H); [now left|right; now right].
Qed.

Lemma keys_hset_nodup hs t h : NoDup (keys hs) -> NoDup (keys (hset hs t h)).
Proof.
  induction hs as [|[k0 h0] r IH]; intros Hn; cbn [hset].
  - cbn. constructor; [intros []|constructor].
  - inversion Hn as [|? ? Hnot Hn']; subst. destruct (N.eqb_spec k0 t) as [->|Hk]; [exact Hn|].
    cbn [keys map fst]. constructor; [|apply IH, Hn'].
    intros H. destruct (keys_hset _ _ _ _ H); [congruence|contradiction].
Qed.

Lemma sweep_all_local canc : forall hs cs ans o hs' cs' ans', sweep_all canc hs cs ans = (o, hs', cs', ans') ->
  local canc None (all_items hs) cs ans (all_items hs') cs' ans'.
Proof.
  induction hs as [|[t h] r IH]; intros cs ans o hs' cs' ans' E; cbn [sweep_all] in E.
  { injection E as <- <- <- <-. apply local_incl, incl_refl. }
  destruct (sweep_scan canc h cs ans) as [[[o1 live] cs1] ans1] eqn:E1.
  pose proof (local_frame [] (all_items r) (sweep_scan_local E1)) as L1. cbn [app] in L1.
  destruct o1.
  - (* the table is done: its survivors are re-heapified, the sweep goes on over the other tables *)
    destruct (sweep_all canc r cs1 ans1) as [[[o2 r'] cs2] ans2] eqn:E2. injection E as <- <- <- <-.
    apply (local_trans L1). rewrite !all_items_cons.
    apply @local_trans with (h1 := heapify item lessi ditem live ++ all_items r) (cs1 := cs1) (ans1 := ans1).
    + apply local_incl, incl_app; [apply incl_appl|apply incl_appr, incl_refl].
      intros y. apply Permutation_in, heapify_perm.
    + pose proof (local_frame (heapify item lessi ditem live) [] (IH _ _ _ _ _ _ E2)) as L2.
      rewrite !app_nil_r in L2. exact L2.
  - injection E as <- <- <- <-. exact L1.
  - injection E as <- <- <- <-. exact L1.
Qed.

Arguments sweep_all_local {canc hs cs ans o hs' cs' ans'}.

Lemma sweep_all_fine canc : forall hs o cs ans, HInv (all_items hs ++ o) cs ans ->
  exists hs' cs' ans', sweep_all canc hs cs ans = (Fine, hs', cs', ans') /\
    HInv (all_items hs' ++ o) cs' ans' /\ keys hs' = keys hs.
Proof.
  induction hs as [|[k h] r IH]; intros o cs ans HI; [now exists [], cs, ans|].
  rewrite all_items_cons, <- app_assoc in HI.
  destruct (sweep_scan_fine canc _ HI) as (cs1 & ans1 & E1 & HI1).
  pose (live := heapify item lessi ditem (filter (fun x => negb (canc (it_id x))) h)).
  (* the table done joins the others *)
  destruct (IH (live ++ o) cs1 ans1) as (r' & cs2 & ans2 & E2 & HI2 & Hk).
  { eapply HInv_perm; [|exact HI1]. eapply perm_trans; [apply Permutation_app_swap_app|].
    apply Permutation_app_head, Permutation_app_tail, Permutation_sym, heapify_perm. }
  exists ((k, live) :: r'), cs2, ans2. cbn [sweep_all]. rewrite E1, E2. split; [reflexivity|]. split; [|cbn; now f_equal].
  rewrite all_items_cons, <- app_assoc. exact (HInv_perm (Permutation_app_swap_app _ _ _) HI2).
Qed.

Arguments sweep_all_fine canc {hs} o {cs ans}.

Definition known (s : qstate) : list nat := ids (all_items (heaps s)) ++ ans_ids (answers s).

Definition fresh_event (s : qstate) (e : event) : Prop :=
  match e with EAdd id _ _ => ~ In id (known s) | _ => True end.
Definition is_add (e : event) (j : nat) : Prop := match e with EAdd id _ _ => id = j | _ => False end.

(* What an event does to the waiters and to the answers, whatever its outcome and whatever the state: it queues nobody
   but the waiter of an Add, and answers only queued waiters, each for its reason. *)
Definition added (e : event) : list item :=
  match e with EAdd id _ rev => [{| it_id := id; it_rev := rev |}] | _ => [] end.
Definition notified (e : event) : option N := match e with ENotify _ rev => Some rev | _ => None end.

Lemma step_local s e o s' r : step s e = (o, s', r) ->
  incl (all_items (heaps s')) (added e ++ all_items (heaps s)) /\
  answered (is_cancelled s) (notified e) (all_items (heaps s)) (answers s) (answers s').
Proof.
  destruct e as [id t rev|id|t rev| |id|t]; cbn [step added notified app].
  - intros [= <- <- <-]. split; [|apply answered_refl]. cbn [heaps].
    intros y Hy. apply in_hset, in_app_or in Hy. destruct Hy as [Hy|Hy]; [|now right].
    apply (Permutation_in _ (push_perm _ _ _ _ _)) in Hy. destruct Hy as [<-|Hy]; [now left|right; now apply (in_hget _ t)].
  - intros [= <- <- <-]. split; [apply incl_refl|apply answered_refl].
  - destruct (notify_loop _ _ _ _ _ _) as [[[o1 h'] cs'] ans'] eqn:E. intros [= <- <- <-]. cbn [heaps answers].
    destruct (notify_loop_local E) as (Hi & _ & Ha). split.
    + intros y Hy. apply in_hset, in_app_or in Hy. destruct Hy as [Hy|Hy]; [apply (in_hget _ t), Hi, Hy|exact Hy].
    + exact (answered_incl (in_hget _ t) Ha).
  - destruct (sweep_all _ _ _ _) as [[[o1 hs'] cs'] ans'] eqn:E. intros [= <- <- <-].
    destruct (sweep_all_local E) as (Hi & _ & Ha). now split.
  - intros [= <- <- <-]. split; [apply incl_refl|apply answered_refl].
  - intros [= <- <- <-]. split; [apply incl_refl|apply answered_refl].
Qed.

Arguments step_local {s e o s' r}.

Lemma step_known s e o s' r : step s e = (o, s', r) -> forall j, In j (known s') -> In j (known s) \/ is_add e j.
Proof.
  intros E j. destruct (step_local E) as (Hi & Ha). unfold known. rewrite !in_app_iff. intros [Hj|Hj].
  - apply (incl_map it_id Hi) in Hj. unfold ids in Hj. rewrite map_app, in_app_iff in Hj.
    destruct Hj as [Hj|Hj]; [|left; now left].
    right. destruct e; try contradiction. destruct Hj as [<-|[]]. reflexivity.
  - left. destruct (answered_ids Ha Hj); [now left|now right].
Qed.

Lemma GInv0 : GInv q0.
Proof.
  split; cbn; [constructor|].
  split; cbn; [constructor|intros x []|intros x []|constructor].
Qed.

Theorem step_never_blocks s e : GInv s -> fresh_event s e ->
  exists s' r, step s e = (Fine, s', r) /\ GInv s' /\
    (forall j, In j (known s') -> In j (known s) \/ is_add e j).
Proof.
  intros [Hk HI] Hf.
  enough (H : exists s' r, step s e = (Fine, s', r) /\ GInv s').
  { destruct H as (s' & r & E & HG). exists s', r. split; [exact E|]. split; [exact HG|exact (step_known s e Fine s' r E)]. }
  destruct e as [id t rev|id|t rev| |id|t]; cbn [step].
  - (* Add: the new waiter joins its table's heap *)
    eexists _, _. split; [reflexivity|]. cbn [fresh_event] in Hf. unfold known in Hf. rewrite in_app_iff in Hf.
    destruct (table_split (heaps s) t) as (o & Hp & Hp').
    constructor; cbn [heaps chans answers]; [apply keys_hset_nodup, Hk|].
    apply @HInv_perm with (h := {| it_id := id; it_rev := rev |} :: all_items (heaps s)); [|apply HInv_cons; tauto].
    eapply perm_trans; [apply perm_skip, Hp|]. eapply perm_trans; [|apply Permutation_sym, Hp'].
    exact (Permutation_app_tail o (Permutation_sym (push_perm item lessi ditem (hget (heaps s) t) _))).
  - eexists _, _. split; [reflexivity|]. constructor; assumption.
  - (* Notify: the handler works on the heap of t, every other waiter stands by *)
    destruct (table_split (heaps s) t) as (o & Hp & Hp').
    destruct (notify_loop_fine (is_cancelled s) rev o (le_n _) (HInv_perm Hp HI)) as (h' & cs' & ans' & -> & HI').
    eexists _, _. split; [reflexivity|]. constructor; cbn [heaps chans answers]; [apply keys_hset_nodup, Hk|].
    exact (HInv_perm (Permutation_sym (Hp' h')) HI').
  - rewrite <- (app_nil_r (all_items _)) in HI.
    destruct (sweep_all_fine (is_cancelled s) [] HI) as (hs' & cs' & ans' & -> & HI' & Hk'). rewrite app_nil_r in HI'.
    eexists _, _. split; [reflexivity|]. constructor; cbn [heaps chans answers]; [now rewrite Hk'|exact HI'].
  - (* Read: only a waiter that has been sent something, so a waiter queued nowhere, has a full channel *)
    eexists _, _. split; [reflexivity|]. constructor; cbn [heaps chans answers]; [exact Hk|].
    destruct (cget (chans s) id) eqn:Ec; try exact HI.
    destruct HI as [Hn He Hu Ha]. constructor; auto.
    intros x Hx. rewrite cget_cset_other; [now apply He|]. intro E. rewrite E, (He x Hx) in Ec. discriminate.
  - eexists _, _. split; [reflexivity|]. constructor; assumption.
Qed.

Fixpoint adds (es : list event) : list nat :=
  match es with [] => [] | EAdd id _ _ :: r => id :: adds r | _ :: r => adds r end.

Theorem run_never_blocks es : forall s, GInv s -> NoDup (adds es) -> (forall j, In j (adds es) -> ~ In j (known s)) ->
  fst (run s es) = repeat Fine (length es) /\ GInv (snd (run s es)).
Proof.
  induction es as [|e es IH]; intros s HG Hn Hfresh; [split; [reflexivity|exact HG]|].
  assert (Hfe : fresh_event s e).
  { destruct e; cbn; auto. apply Hfresh. cbn. now left. }
  destruct (step_never_blocks s e HG Hfe) as (s' & r & E & HG' & Hkn).
  cbn [run]. rewrite E.
  assert (Hn' : NoDup (adds es)) by (destruct e; cbn in Hn; auto; now inversion Hn).
  assert (Hfresh' : forall j, In j (adds es) -> ~ In j (known s')).
  { intros j Hj Hin. destruct (Hkn j Hin) as [Hold|Hadd].
    - apply (Hfresh j); [destruct e; cbn; auto|exact Hold].
    - destruct e; cbn in Hadd; try contradiction. subst. cbn in Hn. inversion Hn; subst. contradiction. }
  destruct (IH s' HG' Hn' Hfresh') as [Hr HGf]. destruct (run s' es) as [os s''] eqn:Er. cbn [fst snd] in *.
  split; [cbn; now f_equal|exact HGf].
Qed.

Corollary run_answers_once es s : GInv s -> NoDup (adds es) -> (forall j, In j (adds es) -> ~ In j (known s)) ->
  NoDup (ans_ids (answers (snd (run s es)))) /\
  forall x, In x (all_items (heaps (snd (run s es)))) -> ~ In (it_id x) (ans_ids (answers (snd (run s es)))).
Proof.
  intros HG Hn Hf. destruct (run_never_blocks es s HG Hn Hf) as [_ [_ HI]].
  exact (conj (hi_ans_nodup _ _ _ HI) (hi_unanswered _ _ _ HI)).
Qed.
