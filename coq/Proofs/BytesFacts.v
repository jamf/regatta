From Coq Require Import Lia.
From Verif Require Import Model.Bytes.

Lemma filter_all {A} (f : A -> bool) l : (forall x, In x l -> f x = true) -> filter f l = l.
Proof.
  induction l as [|a r IH]; intros H; simpl; [reflexivity|].
  rewrite (H a (or_introl eq_refl)). f_equal. apply IH. intros x Hx. apply H. now right.
Qed.

Lemma filter_none {A} (f : A -> bool) l : (forall x, In x l -> f x = false) -> filter f l = [].
Proof.
  induction l as [|a r IH]; intros H; simpl; [reflexivity|].
  rewrite (H a (or_introl eq_refl)). apply IH. intros x Hx. apply H. now right.
Qed.

Lemma filter_map_comm {A B} (g : A -> B) (f : B -> bool) l : filter f (map g l) = map g (filter (fun x => f (g x)) l).
Proof. induction l as [|a r IH]; simpl; [reflexivity|]. destruct (f (g a)); simpl; now rewrite IH. Qed.

Lemma filter_filter {A} (f g : A -> bool) (l : list A) : filter f (filter g l) = filter (fun x => g x && f x) l.
Proof.
  induction l as [|a r IH]; simpl; [reflexivity|]. destruct (g a); simpl.
  - destruct (f a); now rewrite IH.
  - exact IH.
Qed.

Lemma Forall_filter {A} (P : A -> Prop) f (l : list A) : Forall P l -> Forall P (filter f l).
Proof. exact (incl_Forall (incl_filter f l)). Qed.

Lemma NoDup_app_inv {A} (a b : list A) : NoDup (a ++ b) -> NoDup a /\ NoDup b /\ (forall x, In x a -> ~ In x b).
Proof.
  induction a as [|y a IH]; cbn; intros H.
  - split; [constructor|]. split; [exact H|]. intros x [].
  - inversion H as [|? ? Hnot Hn]; subst. destruct (IH Hn) as (Ha & Hb & Hd). split; [|split].
    + constructor; [|exact Ha]. intro Hy. apply Hnot, in_or_app. now left.
    + exact Hb.
    + intros x [<-|Hx]; [|now apply Hd]. intro Hy. apply Hnot, in_or_app. now right.
Qed.

Lemma existsb_Neqb x l : existsb (N.eqb x) l = true <-> In x l.
Proof.
  rewrite existsb_exists. split.
  - intros (y & Hy & E). apply N.eqb_eq in E. now subst.
  - intros H. exists x. split; [exact H|apply N.eqb_refl].
Qed.

Lemma skipn_skipn {A} i j (l : list A) : skipn i (skipn j l) = skipn (j + i) l.
Proof. revert l. induction j as [|j IH]; intros [|x l]; cbn [skipn Nat.add]; auto using skipn_nil. Qed.

(* cutting l ++ x after exactly the length of l: the step of every length-prefixed decoder *)
Lemma skipn_app_len {A} n (l x : list A) : length l = n -> skipn n (l ++ x) = x.
Proof. intros <-. induction l; simpl; auto. Qed.

Lemma firstn_app_len {A} n (l x : list A) : length l = n -> firstn n (l ++ x) = l.
Proof. intros <-. induction l; simpl; f_equal; auto. Qed.

Lemma app_not_short {A} n (l x : list A) : length l = n -> (length (l ++ x) <? n)%nat = false.
Proof. intros <-. apply Nat.ltb_ge. rewrite app_length. lia. Qed.

Lemma last_app_cons {A} (a : list A) x b d d' : last (a ++ x :: b) d = last (x :: b) d'.
Proof.
  induction a as [|y a IH].
  - revert x. induction b as [|z b IH]; intros x; [reflexivity|apply (IH z)].
  - simpl. rewrite IH. now destruct a.
Qed.
Lemma last_map_ne {A B} (g : A -> B) (l : list A) d d' : l <> [] -> last (map g l) d' = g (last l d).
Proof.
  induction l as [|x l IH]; [contradiction|]. intros _.
  destruct l; [reflexivity|]. apply IH. discriminate.
Qed.

Lemma lex_refl a : lex_compare a a = Eq.
Proof. induction a as [|x a IH]; simpl; [reflexivity|]. now rewrite N.compare_refl. Qed.

Lemma lex_eq a b : lex_compare a b = Eq <-> a = b.
Proof.
  split; [|intros ->; apply lex_refl].
  revert b; induction a as [|x a IH]; intros [|y b]; simpl; try discriminate; [reflexivity|].
  destruct (N.compare_spec x y) as [->|H|H]; try discriminate.
  intros E. f_equal. now apply IH.
Qed.

Lemma lex_antisym a b : lex_compare b a = CompOpp (lex_compare a b).
Proof.
  revert b; induction a as [|x a IH]; intros [|y b]; simpl; try reflexivity.
  rewrite (N.compare_antisym x y). destruct (N.compare x y); simpl; auto.
Qed.

Lemma lex_lt_trans a b c : lex_compare a b = Lt -> lex_compare b c = Lt -> lex_compare a c = Lt.
Proof.
  revert b c; induction a as [|x a IH]; intros [|y b] [|z c]; simpl; try discriminate; auto.
  destruct (N.compare_spec x y) as [->|H1|H1]; try discriminate.
  - destruct (N.compare y z); try discriminate; auto. apply IH.
  - destruct (N.compare_spec y z) as [<-|H2|H2]; try discriminate; intros _ _.
    + now rewrite (proj2 (N.compare_lt_iff x y) H1).
    + now rewrite (proj2 (N.compare_lt_iff x z) (N.lt_trans _ _ _ H1 H2)).
Qed.

Lemma lex_prefix p a b : lex_compare (p ++ a) (p ++ b) = lex_compare a b.
Proof. induction p as [|x p IH]; simpl; [reflexivity|]. now rewrite N.compare_refl. Qed.

(* the three outcomes of a comparison, in the form [destruct] wants *)
Lemma lex_spec a b : CompareSpec (a = b) (blt a b) (blt b a) (lex_compare a b).
Proof.
  destruct (lex_compare a b) eqn:E; constructor.
  - now apply lex_eq.
  - exact E.
  - unfold blt. now rewrite lex_antisym, E.
Qed.

Lemma lex_lt_irrefl a : lex_compare a a <> Lt.
Proof. rewrite lex_refl. discriminate. Qed.

Lemma lex_le_lt_trans a b c : lex_compare a b <> Gt -> lex_compare b c = Lt -> lex_compare a c = Lt.
Proof.
  destruct (lex_spec a b) as [->|H|_].
  - trivial.
  - intros _. now apply lex_lt_trans.
  - congruence.
Qed.

Lemma lex_lt_le_trans a b c : lex_compare a b = Lt -> lex_compare b c <> Gt -> lex_compare a c = Lt.
Proof.
  destruct (lex_spec b c) as [->|H|_].
  - trivial.
  - intros H1 _. now apply (lex_lt_trans a b c).
  - congruence.
Qed.

Lemma bltb_lt a b : bltb a b = true <-> blt a b.
Proof. unfold bltb, blt. destruct (lex_compare a b); split; congruence. Qed.

Lemma bleb_le a b : bleb a b = true <-> ble a b.
Proof. unfold bleb, ble. destruct (lex_compare a b); split; congruence. Qed.

Lemma bleb_bltb a b : bleb a b = negb (bltb b a).
Proof. unfold bleb, bltb. rewrite (lex_antisym a b). destruct (lex_compare a b); reflexivity. Qed.

Lemma beqb_eq a b : beqb a b = true <-> a = b.
Proof. unfold beqb. rewrite <- lex_eq. destruct (lex_compare a b); split; congruence. Qed.

Lemma beqb_refl k : beqb k k = true.
Proof. now apply beqb_eq. Qed.

Lemma beqb_neq a b : beqb a b = false <-> a <> b.
Proof. rewrite <- beqb_eq. destruct (beqb a b); split; congruence. Qed.

Lemma beqb_sym a b : beqb a b = beqb b a.
Proof. unfold beqb. rewrite (lex_antisym a b). now destruct (lex_compare a b). Qed.

Lemma blt_neq a b : blt a b -> beqb b a = false.
Proof. intros H. apply beqb_neq. intros ->. now apply lex_lt_irrefl in H. Qed.

Lemma le_bytes_length n x : length (le_bytes n x) = n.
Proof. revert x; induction n; intros x; simpl; auto. Qed.

Lemma le_val_bytes n x : x < 256 ^ N.of_nat n -> le_val (le_bytes n x) = x.
Proof.
  revert x; induction n as [|n IH]; intros x H.
  - symmetry. now apply N.lt_1_r.
  - cbn [le_bytes le_val]. rewrite IH.
    + rewrite N.add_comm. symmetry. apply N.div_mod'.
    + rewrite Nnat.Nat2N.inj_succ, N.pow_succ_r' in H. now apply N.div_lt_upper_bound.
Qed.
