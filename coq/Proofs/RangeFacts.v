(* iter.go iterate: paging is lossless, counts are exact, 'more' is truthful (C09).
   The limit and the size cuts are separate matters.  [loop_chunker] says that the loop is the size-cutting
   [chunker] run over the pairs the limit lets through, its last message flagged when pairs remain; what
   holds of every message wherever the loop stops is had from [loop_all]. *)
From Coq Require Import Lia ZifyBool.
From Verif Require Import Model.Cmd.

Section IterFacts.
  Variable P : Type.
  Variable ksz vsz : P -> N.
  Variable maxSize : N.
  Notation loop := (iter_loop P ksz vsz maxSize).
  Notation iter := (iterate P ksz vsz maxSize).
  Notation chunk := (chunk P).

  (* the pairs a read with this limit returns, when i of them were already consumed *)
  Definition takeZ (limit i : Z) (ps : list P) : list P :=
    if (limit <=? 0)%Z then ps else firstn (Z.to_nat (limit - i)) ps.
  Definition remains (limit i : Z) (ps : list P) : bool :=
    (0 <? limit)%Z && (limit - i <? Z.of_nat (length ps))%Z.

  Definition all_items (cs : list chunk) : list P := concat (map ch_items cs).
  Definition total_count (cs : list chunk) : Z := fold_right (fun c a => (ch_count c + a)%Z) 0%Z cs.

  Definition chunk_close (cur : list P) (cnt : Z) (more : bool) : chunk := {| ch_items := cur; ch_count := cnt; ch_more := more |}.
  Definition chunk_push (m : mode) (cur : list P) (p : P) : list P := match m with MCount => cur | _ => cur ++ [p] end.
  Definition size_cut (m : mode) (cur : list P) (cnt : Z) (p : P) : bool :=
    maxSize <=? resp_size P ksz vsz m cur cnt + sf P ksz vsz m p.

  Lemma loop_cons m limit p rest i cur cnt :
    loop m limit (p :: rest) i cur cnt =
    if (i =? limit)%Z && negb (limit =? 0)%Z then [chunk_close cur cnt true]
    else if size_cut m cur cnt p then chunk_close cur cnt true :: loop m limit rest (i + 1) (chunk_push m [] p) 1
         else loop m limit rest (i + 1) (chunk_push m cur p) (cnt + 1).
  Proof.
    cbn [iter_loop]. destruct (_ && _); [reflexivity|]. unfold size_cut. now destruct (maxSize <=? _), rest.
  Qed.

  Lemma chunk_push_app m cur p : m <> MCount -> chunk_push m cur p = cur ++ [p].
  Proof. now destruct m. Qed.

  Lemma loop_all (Q : list P -> Z -> Prop) m limit ps :
    (forall cur cnt p, In p ps -> Q cur cnt -> size_cut m cur cnt p = false -> Q (chunk_push m cur p) (cnt + 1)%Z) ->
    (forall p, In p ps -> Q (chunk_push m [] p) 1%Z) ->
    forall i cur cnt, Q cur cnt -> Forall (fun c => Q (ch_items c) (ch_count c)) (loop m limit ps i cur cnt).
  Proof.
    induction ps as [|p rest IH]; intros Hkeep Hcut i cur cnt H; [now repeat constructor|].
    specialize (IH (fun cur cnt q Hq => Hkeep cur cnt q (or_intror Hq)) (fun q Hq => Hcut q (or_intror Hq))).
    rewrite loop_cons. destruct (_ && _); [now repeat constructor|].
    destruct (size_cut m cur cnt p) eqn:E.
    - constructor; [exact H|]. apply IH, Hcut. now left.
    - apply IH, Hkeep; [now left|exact H|exact E].
  Qed.

  Lemma iterate_all (Q : list P -> Z -> Prop) m limit ps :
    (forall cur cnt p, In p ps -> Q cur cnt -> size_cut m cur cnt p = false -> Q (chunk_push m cur p) (cnt + 1)%Z) ->
    (forall p, In p ps -> Q (chunk_push m [] p) 1%Z) -> Q [] 0%Z ->
    Forall (fun c => Q (ch_items c) (ch_count c)) (iter m limit ps).
  Proof. intros Hkeep Hcut H0. unfold iterate. destruct ps; [now repeat constructor|now apply loop_all]. Qed.

  Theorem chunk_counts m limit ps : m <> MCount ->
    Forall (fun c => ch_count c = Z.of_nat (length (ch_items c))) (iter m limit ps).
  Proof.
    intros Hm. apply (iterate_all (fun cur cnt => cnt = Z.of_nat (length cur))); [| |reflexivity].
    - intros cur cnt p _ -> _. rewrite chunk_push_app, app_length by assumption. cbn [length]. lia.
    - intros p _. now rewrite chunk_push_app.
  Qed.

  Lemma loop_count_only limit ps : forall i cur cnt, cur = [] ->
    Forall (fun c => ch_items c = []) (loop MCount limit ps i cur cnt).
  Proof. intros i cur cnt. now apply (loop_all (fun cur _ => cur = [])). Qed.

  Lemma loop_nonempty m limit ps : forall i cur cnt, loop m limit ps i cur cnt <> [].
  Proof.
    induction ps as [|p rest IH]; intros i cur cnt; [discriminate|].
    rewrite loop_cons. destruct (_ && _); [discriminate|]. destruct (size_cut m cur cnt p); [discriminate|apply IH].
  Qed.

  Lemma iterate_nonempty m limit ps : iter m limit ps <> [].
  Proof. unfold iterate. destruct ps as [|p rest]; [discriminate|apply loop_nonempty]. Qed.

  Lemma takeZ_nil limit i : takeZ limit i [] = [].
  Proof. unfold takeZ. destruct (limit <=? 0)%Z; [reflexivity|apply firstn_nil]. Qed.

  Lemma remains_nil limit i : (limit <= 0 \/ i <= limit)%Z -> remains limit i [] = false.
  Proof. intros H. unfold remains. cbn [length]. lia. Qed.

  (* 0 <= i matters: a negative limit equal to i would stop the loop, though a negative limit is no limit *)
  Lemma limit_step limit i p ps : (0 <= i)%Z -> (limit <= 0 \/ i <= limit)%Z ->
    if (i =? limit)%Z && negb (limit =? 0)%Z
    then takeZ limit i (p :: ps) = [] /\ remains limit i (p :: ps) = true
    else takeZ limit i (p :: ps) = p :: takeZ limit (i + 1) ps /\ remains limit i (p :: ps) = remains limit (i + 1) ps /\
         (limit <= 0 \/ i + 1 <= limit)%Z.
  Proof.
    intros Hi Hl. unfold takeZ, remains. cbn [length].
    destruct (Z.leb_spec limit 0) as [Hz|Hz].
    - replace ((i =? limit)%Z && negb (limit =? 0)%Z) with false by lia.
      split; [reflexivity|]. split; lia.
    - replace (negb (limit =? 0)%Z) with true by lia.
      destruct (Z.eqb_spec i limit) as [E|E]; cbn [andb].
      + replace (limit - i)%Z with 0%Z by lia. split; [reflexivity|lia].
      + replace (Z.to_nat (limit - i)) with (S (Z.to_nat (limit - (i + 1)))) by lia.
        split; [reflexivity|]. split; lia.
  Qed.

  (* the size cuts alone: every pair is taken; the last message carries the given flag *)
  Fixpoint chunker (m : mode) (more : bool) (ps : list P) (cur : list P) (cnt : Z) : list chunk :=
    match ps with
    | [] => [chunk_close cur cnt more]
    | p :: rest => if size_cut m cur cnt p then chunk_close cur cnt true :: chunker m more rest (chunk_push m [] p) 1
                   else chunker m more rest (chunk_push m cur p) (cnt + 1)
    end.

  Lemma loop_chunker m limit ps : forall i cur cnt, (0 <= i)%Z -> (limit <= 0 \/ i <= limit)%Z ->
    loop m limit ps i cur cnt = chunker m (remains limit i ps) (takeZ limit i ps) cur cnt.
  Proof.
    induction ps as [|p rest IH]; intros i cur cnt Hi Hl.
    - now rewrite takeZ_nil, remains_nil.
    - rewrite loop_cons. pose proof (limit_step limit i p rest Hi Hl) as S.
      destruct (_ && _).
      + destruct S as [-> ->]. reflexivity.
      + destruct S as (-> & -> & Hl'). cbn [chunker]. now rewrite !IH by lia.
  Qed.

  Theorem iterate_chunker m limit ps : iter m limit ps = chunker m (remains limit 0 ps) (takeZ limit 0 ps) [] 0.
  Proof.
    unfold iterate. destruct ps.
    - now rewrite takeZ_nil, remains_nil by lia.
    - apply loop_chunker; lia.
  Qed.

  Lemma chunker_items m more ps : m <> MCount -> forall cur cnt, all_items (chunker m more ps cur cnt) = cur ++ ps.
  Proof.
    intros Hm. induction ps as [|p rest IH]; intros cur cnt; cbn [chunker]; [reflexivity|].
    destruct (size_cut m cur cnt p).
    - change (all_items (?c :: ?l)) with (ch_items c ++ all_items l). now rewrite IH, chunk_push_app.
    - now rewrite IH, chunk_push_app, <- app_assoc.
  Qed.

  Lemma chunker_count m more ps : forall cur cnt,
    total_count (chunker m more ps cur cnt) = (cnt + Z.of_nat (length ps))%Z.
  Proof.
    induction ps as [|p rest IH]; intros cur cnt; cbn [chunker length]; [cbn; lia|].
    destruct (size_cut m cur cnt p).
    - change (total_count (?c :: ?l)) with (ch_count c + total_count l)%Z. rewrite IH. cbn [ch_count chunk_close]. lia.
    - rewrite IH. lia.
  Qed.

  (* every chunk but the last is flagged; the last is flagged exactly when pairs of the range remain *)
  Definition more_ok (remain : bool) (cs : list chunk) : Prop :=
    exists front lastc, cs = front ++ [lastc] /\ Forall (fun c => ch_more c = true) front /\ ch_more lastc = remain.

  Lemma more_ok_cons c cs r : ch_more c = true -> more_ok r cs -> more_ok r (c :: cs).
  Proof.
    intros Hc (front & lastc & -> & Hf & Hl). exists (c :: front), lastc. repeat split; auto.
  Qed.

  Lemma chunker_more m more ps : forall cur cnt, more_ok more (chunker m more ps cur cnt).
  Proof.
    induction ps as [|p rest IH]; intros cur cnt; cbn [chunker].
    - exists [], (chunk_close cur cnt more). repeat split. constructor.
    - destruct (size_cut m cur cnt p); [|apply IH]. apply more_ok_cons; [reflexivity|apply IH].
  Qed.

  Theorem paging_lossless m limit ps : m <> MCount -> all_items (iter m limit ps) = takeZ limit 0 ps.
  Proof. intros Hm. rewrite iterate_chunker. now apply chunker_items. Qed.

  Theorem count_exact m limit ps : total_count (iter m limit ps) = Z.of_nat (length (takeZ limit 0 ps)).
  Proof. rewrite iterate_chunker. apply chunker_count. Qed.

  Theorem more_exact m limit ps : more_ok (remains limit 0 ps) (iter m limit ps).
  Proof. rewrite iterate_chunker. apply chunker_more. Qed.

  Lemma remains_spec limit ps : remains limit 0 ps = true <-> (length (takeZ limit 0 ps) < length ps)%nat.
  Proof.
    unfold remains, takeZ. rewrite Z.sub_0_r.
    destruct (Z.leb_spec limit 0) as [H|H]; [|rewrite firstn_length]; lia.
  Qed.

  Lemma takeZ_prefix limit ps : exists rest, ps = takeZ limit 0 ps ++ rest.
  Proof.
    unfold takeZ. destruct (limit <=? 0)%Z.
    - exists []. now rewrite app_nil_r.
    - exists (skipn (Z.to_nat (limit - 0)) ps). now rewrite firstn_skipn.
  Qed.
  Lemma takeZ_limit limit ps : (0 < limit)%Z -> (Z.of_nat (length (takeZ limit 0 ps)) <= limit)%Z.
  Proof.
    intros H. unfold takeZ. destruct (Z.leb_spec limit 0); [lia|]. rewrite firstn_length. lia.
  Qed.
  Lemma takeZ_all limit ps : (limit <= 0 \/ Z.of_nat (length ps) <= limit)%Z -> takeZ limit 0 ps = ps.
  Proof.
    intros H. unfold takeZ. destruct (Z.leb_spec limit 0); [reflexivity|]. apply firstn_all2. lia.
  Qed.
End IterFacts.
