(* replication/worker.go lease routine over the lease protocol: a worker's [leased] flag is set only while the node's
   last finished LeaseTable call succeeded, and then the node's grant in the store is the one that call obtained.
   Together with C15's mutual exclusion: two workers with the flag set can coexist only if one of them is past the end
   of the lease its last call obtained (its routine missed the renewal deadline: 3 of the 4 lease intervals of slack). *)
From Verif Require Import Model.LeaseWorker Proofs.LeaseFacts.

(* which nodes run a worker; the other actors (WOther) are the remaining nodes and the clock.  A worker node acts
   through WCall / WApply / WErr only, so the late application of a write whose call has already returned an error
   is a WApply, which sets the flag *)
Definition node_of (a : action) : option nat :=
  match a with ATick _ => None | ALease n _ _ => Some n | AReturn n => Some n | AApply n => Some n end.
Definition wf_action (isw : nat -> bool) (a : waction) : Prop :=
  match a with
  | WOther b => match node_of b with Some m => isw m = false | None => True end
  | WCall n _ => isw n = true
  | WApply n => isw n = true
  | WErr n => isw n = true
  end.

Record WInv (isw : nat -> bool) (s : wst) : Prop := {
  w_base : LInv (base s);
  w_flag : forall n, isw n = true -> flag s n = true -> exists u, lastok s n = Some u /\ grant (base s) n = Some u
}.

Lemma WInv0 isw : WInv isw wst0.
Proof. constructor; [exact LInv0|]. intros n _ H. discriminate. Qed.

(* only the application of a node's own write changes the node's grant *)
Lemma lexec_grant_other s a n : a <> AApply n -> grant (fst (lexec s a)) n = grant s n.
Proof.
  intros H. destruct a as [d|m dur e|m|m]; cbn [lexec].
  - reflexivity.
  - destruct (pcs s m); try reflexivity. destruct (may_take m (rec s) (now s)); reflexivity.
  - destruct (pcs s m); try reflexivity. destruct (rec s) as [r|]; try reflexivity. destruct (Nat.eqb (lid r) m); reflexivity.
  - assert (Hne : n <> m) by congruence.
    destruct (pcs s m) as [|seen u|r]; try reflexivity.
    + destruct (cas_ok (rec s) (seen_ver seen)); cbn [fst grant]; [now apply upd_other|reflexivity].
    + destruct (cas_ok (rec s) (lver r)); cbn [fst grant]; [now apply upd_other|reflexivity].
Qed.

(* the two shapes of a worker step: the store moves under the workers' flags, which stay as they are ... *)
Lemma winv_keep isw s b : WInv isw s -> LInv b -> (forall m, isw m = true -> grant b m = grant (base s) m) ->
  WInv isw {| base := b; flag := flag s; lastok := lastok s |}.
Proof.
  intros [HB HF] Hb Hg. constructor; cbn [base flag lastok]; [exact Hb|].
  intros m Hm Hfl. rewrite (Hg m Hm). now apply HF.
Qed.

(* ... or the call of worker n returns and sets its flag: to true only with the grant the call obtained *)
Lemma winv_set isw s b n f l : WInv isw s -> LInv b -> (forall m, m <> n -> grant b m = grant (base s) m) ->
  (f = true -> exists u, l = Some u /\ grant b n = Some u) -> WInv isw (set_worker s b n f l).
Proof.
  intros [HB HF] Hb Hg Hn. constructor; cbn [set_worker base flag lastok]; [exact Hb|].
  intros m Hm. unfold upd. destruct (Nat.eqb_spec m n) as [->|Hne]; [exact Hn|]. rewrite (Hg m Hne). now apply HF.
Qed.

Theorem wexec_inv isw s a : WInv isw s -> wf_action isw a -> WInv isw (wexec s a).
Proof.
  intros HI Hwf. pose proof (w_base isw s HI) as HB. destruct a as [b|n dur|n|n]; unfold wexec; cbn [wexec_gen].
  - (* somebody else, or the clock *)
    apply winv_keep; [exact HI|apply lexec_inv, HB|]. intros m Hm. apply lexec_grant_other. intros ->.
    cbn in Hwf. congruence.
  - (* the routine's tick: read and decide *)
    pose proof (lexec_inv (base s) (ALease n dur false) HB) as HB'.
    assert (HG : forall m, grant (fst (lexec (base s) (ALease n dur false))) m = grant (base s) m)
      by (intros m; now apply lexec_grant_other).
    destruct (lexec (base s) (ALease n dur false)) as [b r]. cbn [fst] in HB', HG.
    assert (Hkeep : WInv isw {| base := b; flag := flag s; lastok := lastok s |}) by (apply winv_keep; auto).
    destruct r as [| | | |ret]; [exact Hkeep|exact Hkeep| |exact Hkeep|exact Hkeep].
    (* RRefused (ErrLeaseNotAcquired): the flag goes down *)
    apply winv_set; auto. discriminate.
  - (* the write is applied, the call returns *)
    destruct (pcs (base s) n) as [|seen u|r] eqn:Ep; try exact HI.
    pose proof (lexec_inv (base s) (AApply n) HB) as HB'.
    assert (HGo : forall m, m <> n -> grant (fst (lexec (base s) (AApply n))) m = grant (base s) m)
      by (intros m Hne; apply lexec_grant_other; congruence).
    assert (HGn : snd (lexec (base s) (AApply n)) = RAcquired -> grant (fst (lexec (base s) (AApply n))) n = Some u).
    { cbn [lexec]. rewrite Ep. destruct (cas_ok (rec (base s)) (seen_ver seen)); cbn [fst snd grant].
      - intros _. apply upd_same.
      - discriminate. }
    destruct (lexec (base s) (AApply n)) as [b r]. cbn [fst snd] in HB', HGo, HGn.
    assert (Hdown : WInv isw (set_worker s b n false None)) by (apply winv_set; auto; discriminate).
    destruct r as [| | | |ret]; [exact Hdown| |exact Hdown|exact Hdown|exact Hdown].
    (* RAcquired: the flag goes up, with the grant this write obtained *)
    apply winv_set; auto. intros _. exists u. auto.
  - (* the call fails with another error: the flag is cleared *)
    apply winv_set; auto. discriminate.
Qed.

Theorem wrun_inv isw acts : forall s, WInv isw s -> Forall (wf_action isw) acts -> WInv isw (wrun s acts).
Proof.
  unfold wrun, wrun_gen. induction acts as [|a r IH]; intros s HI Hf; [exact HI|].
  inversion Hf as [|? ? Ha Hr]; subst. cbn [fold_left]. apply IH; [|exact Hr]. now apply wexec_inv.
Qed.

Theorem flag_holder isw s n u : WInv isw s -> isw n = true -> flag s n = true -> lastok s n = Some u ->
  now (base s) <= u -> holder (base s) n.
Proof.
  intros HI Hn Hfl Hl Ht. destruct (w_flag isw s HI n Hn Hfl) as (u0 & H1 & H2).
  rewrite Hl in H1. injection H1 as <-. exists u. auto.
Qed.

Theorem flags_exclusive isw s n m : WInv isw s -> isw n = true -> isw m = true ->
  flag s n = true -> flag s m = true ->
  n = m \/ (exists u, lastok s n = Some u /\ u < now (base s)) \/ (exists u, lastok s m = Some u /\ u < now (base s)).
Proof.
  intros HI Hn Hm Fn Fm.
  destruct (w_flag isw s HI n Hn Fn) as (un & Ln & Gn). destruct (w_flag isw s HI m Hm Fm) as (um & Lm & Gm).
  destruct (N.ltb_spec un (now (base s))) as [Hlate|Hin]; [right; left; eauto|].
  destruct (N.ltb_spec um (now (base s))) as [Hlate|Hin']; [right; right; eauto|].
  left. apply (mutex_inv (base s) (w_base isw s HI)); [exists un|exists um]; auto.
Qed.

Theorem flag_down_after_failure s n : flag (wexec s (WErr n)) n = false.
Proof. unfold wexec; cbn [wexec_gen set_worker flag]. apply upd_same. Qed.
Theorem flag_down_after_refusal s n dur b : lexec (base s) (ALease n dur false) = (b, RRefused) ->
  flag (wexec s (WCall n dur)) n = false.
Proof. intros E. unfold wexec; cbn [wexec_gen]. rewrite E. cbn [set_worker flag]. apply upd_same. Qed.
