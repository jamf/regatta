(* Facts about the API model (Model/Api.v).  Whatever the kind of request, [api_step] does one of three things
   ([step_outcome]): it refuses, it answers from the table, or it proposes one command and replaces the table.  The
   theorems about single steps are checks of these three cases; the five kinds of request reappear only where a
   statement names them or where the answer or the command of a request is computed. *)
From Verif Require Import Model.Api Proofs.BytesFacts Proofs.SMapFacts Proofs.FsmRefine Proofs.SpecFacts Proofs.ValidateFacts.

Section RelDb.
  Context {A B : Type} (R : A -> B -> Prop).
  Definition rel_db (d : smap A) (e : smap B) : Prop := Forall2 (fun a b => fst a = fst b /\ R (snd a) (snd b)) d e.

  Lemma rel_get d e t : rel_db d e ->
    match sget d t, sget e t with Some a, Some b => R a b | None, None => True | _, _ => False end.
  Proof.
    induction 1 as [|[k a] [k' b] d e [Hk HR] _ IH]; simpl; [exact I|].
    simpl in Hk. subst k'. destruct (beqb t k); [exact HR|exact IH].
  Qed.

  Lemma rel_set d e t a b : rel_db d e -> R a b -> rel_db (sset d t a) (sset e t b).
  Proof.
    intros H HR. induction H as [|[k x] [k' y] d e [Hk Hxy] Hde IH]; simpl.
    - repeat constructor. exact HR.
    - simpl in Hk. subst k'. destruct (lex_compare t k); repeat constructor; assumption.
  Qed.

  Lemma rel_known (kn : forall T, smap T -> bytes -> bool) d e t :
    (forall T (x : smap T), kn T x t = match sget x t with Some _ => true | None => false end) ->
    rel_db d e -> kn A d t = kn B e t.
  Proof.
    intros Hk H. rewrite !Hk. pose proof (rel_get d e t H) as G.
    destruct (sget d t), (sget e t); try reflexivity; contradiction.
  Qed.
End RelDb.

(* A request apart from the tables: its status, whether it proposes ([is_write]) and what, and the answer made of the
   result.  [req_cmd] and [read_answer] have a filler branch for the kinds that [is_write] keeps away from them. *)
Definition resp_rev (o : api_resp) : option N :=
  match o with PPut _ r | PDel _ _ r | PTxn _ _ r => Some r | _ => None end.
Definition is_write (q : api_req) : bool :=
  match q with
  | QPut _ _ _ _ | QDelete _ _ _ _ _ => true
  | QTxn _ _ su fa => negb (is_readonly (map op_feat su) (map op_feat fa))
  | _ => false
  end.
Definition req_status (kn : bool) (q : api_req) : status :=
  match q with
  | QRange t r _ f | QIterate t r _ f => range_status (range_feat kn t r f)
  | QPut t k v _ => put_status (put_feat kn t k v)
  | QDelete t k _ _ _ => del_status (del_feat kn t k)
  | QTxn t _ su fa => txn_status (txn_feat kn t su fa)
  end.
Definition req_cmd (q : api_req) : command :=
  match q with
  | QPut _ k v prev => CPut k v prev
  | QDelete _ k e prev cnt => CDelete k e prev cnt
  | QTxn _ cs su fa => CTxn cs su fa
  | _ => CDummy
  end.
Definition write_answer (q : api_req) (res : result) : api_resp :=
  match q with
  | QPut _ _ _ _ => match first_resp res with Some (RPut p) => PPut p (r_rev res) | _ => PErr SFailedPrecondition end
  | QDelete _ _ _ _ _ => match first_resp res with Some (RDel n kvs) => PDel n kvs (r_rev res) | _ => PErr SFailedPrecondition end
  | _ => PTxn (r_value res =? fsm_ResultSuccess) (if r_data res then r_resps res else []) (if r_data res then r_rev res else 0)
  end.

Fixpoint revs_of (os : list api_resp) : list N :=
  match os with
  | [] => []
  | o :: r => match resp_rev o with Some n => if n =? 0 then revs_of r else n :: revs_of r | None => revs_of r end
  end.

(* regattapb.TxnRequest.IsReadonly read off the features of the operations (Model/Validate.v) is IsReadonly read off the
   operations themselves ([all_ranges], branch by branch; Linear.txn_is_readonly) *)
Lemma ranges_feat l : forallb is_range (map op_feat l) = all_ranges l.
Proof. induction l as [|o l IH]; [reflexivity|]. cbn [map forallb]. rewrite IH. destruct o; reflexivity. Qed.

Lemma readonly_feat su fa : is_readonly (map op_feat su) (map op_feat fa) = all_ranges su && all_ranges fa.
Proof. unfold is_readonly. rewrite !ranges_feat. reflexivity. Qed.

Section Generic.
  Variable T : Type.
  Variable t_lookup : T -> range_req -> range_resp.
  Variable t_iter : T -> range_req -> list range_resp.
  Variable t_txn : T -> list compare -> list request_op -> list request_op -> bool * list response_op.
  Variable t_propose : T -> N -> command -> T * result.
  Notation step := (api_step T t_lookup t_iter t_txn t_propose).
  Notation run := (api_run T t_lookup t_iter t_txn t_propose).

  Definition read_answer (s : T) (q : api_req) : api_resp :=
    match q with
    | QRange _ r _ _ => PRange (t_lookup s r)
    | QIterate _ r _ _ => PIter (t_iter s r)
    | QTxn _ cs su fa => let '(ok, rs) := t_txn s cs su fa in PTxn ok rs 0
    | _ => PErr SOk
    end.

  Lemma api_step_eq d idx q : step d idx q =
    match req_status (known T d (req_table q)) q, sget d (req_table q) with
    | SOk, Some s => if is_write q
                     then let '(s', res) := t_propose s idx (req_cmd q) in (sset d (req_table q) s', write_answer q res)
                     else (d, read_answer s q)
    | SOk, None => (d, PErr SNotFound)
    | st, _ => (d, PErr st)
    end.
  Proof.
    destruct q as [| | | |t cs su fa]; try reflexivity. cbn.
    destruct (txn_status _), (sget d t) as [s|]; try reflexivity.
    destruct (is_readonly _ _); [destruct (t_txn s cs su fa)|]; reflexivity.
  Qed.

  Inductive api_outcome (d : tdb T) (idx : N) (q : api_req) : tdb T * api_resp -> Prop :=
  | StepRefused st : api_outcome d idx q (d, PErr st)
  | StepRead s : sget d (req_table q) = Some s -> is_write q = false -> api_outcome d idx q (d, read_answer s q)
  | StepWritten s s' res : sget d (req_table q) = Some s -> is_write q = true -> req_status true q = SOk ->
      t_propose s idx (req_cmd q) = (s', res) -> api_outcome d idx q (sset d (req_table q) s', write_answer q res).

  Lemma step_outcome d idx q : api_outcome d idx q (step d idx q).
  Proof.
    rewrite api_step_eq. unfold known. destruct (sget d (req_table q)) as [s|] eqn:Hs.
    - destruct (req_status true q) eqn:S; try apply StepRefused. destruct (is_write q) eqn:W.
      + destruct (t_propose s idx (req_cmd q)) as [s' res] eqn:P. exact (StepWritten d idx q s s' res Hs W S P).
      + exact (StepRead d idx q s Hs W).
    - destruct (req_status false q); apply StepRefused.
  Qed.

  Theorem not_written d idx q : is_write q = false -> fst (step d idx q) = d.
  Proof. intros W. destruct (step_outcome d idx q); [reflexivity..|congruence]. Qed.

  Theorem reads_no_effect d idx q :
    match q with QRange _ _ _ _ | QIterate _ _ _ _ => True | _ => False end -> fst (step d idx q) = d.
  Proof. intros Hq. apply not_written. destruct q; try contradiction; reflexivity. Qed.

  (* C14 *)
  Theorem other_tables_untouched d idx q t' : t' <> req_table q -> sget (fst (step d idx q)) t' = sget d t'.
  Proof.
    intros Hne. destruct (step_outcome d idx q); try reflexivity.
    cbn [fst]. apply beqb_neq in Hne. rewrite sget_sset, Hne. reflexivity.
  Qed.

  Theorem known_preserved d idx q t' : known T (fst (step d idx q)) t' = known T d t'.
  Proof.
    destruct (step_outcome d idx q) as [| |s s' res Hs _ _ _]; try reflexivity.
    cbn [fst]. unfold known. rewrite sget_sset. destruct (beqb t' (req_table q)) eqn:E.
    - apply beqb_eq in E. subst t'. rewrite Hs. reflexivity.
    - reflexivity.
  Qed.

  Lemma run_cons d idx q r : run d ((idx, q) :: r) =
    (fst (run (fst (step d idx q)) r), snd (step d idx q) :: snd (run (fst (step d idx q)) r)).
  Proof. cbn [api_run]. destruct (step d idx q) as [d1 o]. cbn [fst snd]. destruct (run d1 r). reflexivity. Qed.

  Lemma run_invariant (P : tdb T -> Prop) : (forall d idx q, P d -> P (fst (step d idx q))) ->
    forall qs d, P d -> P (fst (run d qs)).
  Proof.
    intros Hstep. induction qs as [|[idx q] r IH]; intros d H; [exact H|].
    rewrite run_cons. apply IH, Hstep, H.
  Qed.

  (* the answer made of a proposal's result carries the log position the proposal was given *)
  Hypothesis answer_rev : forall s idx q, is_write q = true ->
    resp_rev (write_answer q (snd (t_propose s idx (req_cmd q)))) = Some idx.

  (* C16: a request that is refused has no effect - the database is the same VALUE afterwards *)
  Theorem refused_no_effect d idx q st : snd (step d idx q) = PErr st -> fst (step d idx q) = d.
  Proof.
    destruct (step_outcome d idx q) as [| |s s' res _ W _ P]; try reflexivity.
    cbn [snd]. intros E.
    pose proof (answer_rev s idx q W) as R. rewrite P in R. cbn [snd] in R. rewrite E in R. discriminate R.
  Qed.

  (* an answer from the table carries no revision, or 0 (a read-only transaction) *)
  Lemma read_answer_rev s q : resp_rev (read_answer s q) = None \/ resp_rev (read_answer s q) = Some 0.
  Proof.
    destruct q as [| | | |t cs su fa]; cbn [read_answer]; try (left; reflexivity).
    destruct (t_txn s cs su fa). right. reflexivity.
  Qed.

  Lemma step_rev d idx q :
    resp_rev (snd (step d idx q)) = None \/ resp_rev (snd (step d idx q)) = Some 0 \/ resp_rev (snd (step d idx q)) = Some idx.
  Proof.
    destruct (step_outcome d idx q) as [|s _ _|s s' res _ W _ P]; cbn [snd].
    - (* refused *) left. reflexivity.
    - (* read *) destruct (read_answer_rev s q) as [R|R]; rewrite R; auto.
    - (* written *) right. right. rewrite <- (answer_rev s idx q W), P. reflexivity.
  Qed.

  Theorem revisions_increase qs : forall d lo,
    Sorted.StronglySorted N.lt (map fst qs) -> Forall (fun i => lo < i) (map fst qs) ->
    Forall (fun r => lo < r) (revs_of (snd (run d qs))) /\ Sorted.StronglySorted N.lt (revs_of (snd (run d qs))).
  Proof.
    induction qs as [|[idx q] r IH]; intros d lo Hs Hlo; [split; constructor|].
    rewrite run_cons. cbn [map fst snd revs_of] in *.
    inversion Hs as [|? ? Hs' Hall]; subst. inversion Hlo as [|? ? Hi Hlo']; subst.
    destruct (IH (fst (step d idx q)) lo Hs' Hlo') as [IH1 IH2]. destruct (IH (fst (step d idx q)) idx Hs' Hall) as [IH3 _].
    destruct (step_rev d idx q) as [-> | [-> | ->]].
    - (* no revision: skipped by revs_of *) split; assumption.
    - (* revision 0: skipped by revs_of *) cbn. split; assumption.
    - (* revision idx: below every later one *)
      destruct (idx =? 0); [split; assumption|].
      split; constructor; assumption.
  Qed.
End Generic.
Arguments not_written {T t_lookup t_iter t_txn t_propose}.
Arguments reads_no_effect {T t_lookup t_iter t_txn t_propose}.
Arguments other_tables_untouched {T t_lookup t_iter t_txn t_propose}.
Arguments known_preserved {T t_lookup t_iter t_txn t_propose}.
Arguments run_invariant {T t_lookup t_iter t_txn t_propose}.
Arguments refused_no_effect {T t_lookup t_iter t_txn t_propose}.
Arguments revisions_increase {T t_lookup t_iter t_txn t_propose}.

(* in both instances a proposal handles the command and wraps what the handler returns *)
Lemma s_propose_eq st idx c : s_propose st idx c =
  ({| content := fst (s_handle (content st) c); applied := idx; leader := leader st |}, mk_result idx c (snd (s_handle (content st) c))).
Proof. apply spec_entry_eq. Qed.

Lemma f_propose_eq s idx c : f_propose s idx c =
  (commit {| u_store := fst (f_handle s c); u_index := idx; u_leader := None |}, mk_result idx c (snd (f_handle s c))).
Proof. unfold f_propose, Update, Update_gen, update_one_gen. cbn. destruct (f_handle s c) as [s' [val rs]]. reflexivity. Qed.

(* a put answers RPut, a delete RDel, a transaction always carries its result: so the answer carries the revision *)
Lemma handle_answer_rev St get set del delrange scan (s : St) idx q : is_write q = true ->
  resp_rev (write_answer q (mk_result idx (req_cmd q) (snd (handle St get set del delrange scan s (req_cmd q))))) = Some idx.
Proof.
  destruct q as [| | |t k e prev cnt|t cs su fa]; try discriminate; intros _; cbn [req_cmd handle].
  - reflexivity.
  - unfold handle_delete. cbn. destruct e, (prev || cnt); reflexivity.
  - destruct (handle_txn St get set del delrange scan s cs su fa) as [s' [ok rs]]. reflexivity.
Qed.

Lemma s_answer_rev st idx q : is_write q = true -> resp_rev (write_answer q (snd (s_propose st idx (req_cmd q)))) = Some idx.
Proof. rewrite s_propose_eq. apply handle_answer_rev. Qed.
Lemma f_answer_rev s idx q : is_write q = true -> resp_rev (write_answer q (snd (f_propose s idx (req_cmd q)))) = Some idx.
Proof. rewrite f_propose_eq. apply handle_answer_rev. Qed.

Definition Rtab (s : store) (st : spec_state) : Prop := exists ol od, s = repr (content st) ol od.
Definition Rdb := rel_db Rtab.

Lemma propose_repr st ol od idx c :
  f_propose (repr (content st) ol od) idx c = (repr (content (fst (s_propose st idx c))) (Some idx) od, snd (s_propose st idx c)).
Proof.
  unfold f_propose, s_propose. rewrite Update_repr. cbn [spec_entries].
  destruct (spec_entry st _) as [st1 o]. reflexivity.
Qed.

Lemma read_answer_repr st ol od q :
  read_answer store f_lookup f_iterator_lookup f_lookup_txn (repr (content st) ol od) q =
  read_answer spec_state (fun st => s_lookup (content st)) (fun st => s_iterator_lookup (content st))
              (fun st => s_lookup_txn (content st)) st q.
Proof. destruct q; cbn [read_answer]; rewrite ?lookup_refines, ?iterator_lookup_refines, ?lookup_txn_refines; reflexivity. Qed.

Theorem step_refines d sd idx q : Rdb d sd ->
  snd (impl_step d idx q) = snd (spec_step sd idx q) /\ Rdb (fst (impl_step d idx q)) (fst (spec_step sd idx q)).
Proof.
  intros HR. unfold impl_step, spec_step. rewrite !api_step_eq.
  rewrite (rel_known Rtab known d sd _ (fun _ _ => eq_refl) HR).
  pose proof (rel_get Rtab d sd (req_table q) HR) as G.
  destruct (req_status _ q); try (split; [reflexivity|exact HR]).
  destruct (sget d _) as [s|], (sget sd _) as [st|]; try contradiction.
  - destruct G as (ol & od & ->). destruct (is_write q).
    + rewrite propose_repr. destruct (s_propose st idx (req_cmd q)) as [st' res].
      split; [reflexivity|]. apply rel_set; [exact HR|]. exists (Some idx), od. reflexivity.
    + rewrite read_answer_repr. split; [reflexivity|exact HR].
  - split; [reflexivity|exact HR].
Qed.

Theorem run_refines qs : forall d sd, Rdb d sd ->
  snd (impl_run d qs) = snd (spec_run sd qs) /\ Rdb (fst (impl_run d qs)) (fst (spec_run sd qs)).
Proof.
  unfold impl_run, spec_run. induction qs as [|[idx q] r IH]; intros d sd HR.
  - split; [reflexivity|exact HR].
  - rewrite !run_cons. cbn [fst snd].
    destruct (step_refines d sd idx q HR) as [Ho Hs]. unfold impl_step, spec_step in Ho, Hs.
    destruct (IH _ _ Hs) as [Ho2 Hs2].
    rewrite Ho, Ho2. split; [reflexivity|exact Hs2].
Qed.

Lemma fresh_rel names : Rdb (fresh_impl names) (fresh_spec names).
Proof.
  unfold fresh_impl, fresh_spec.
  assert (G : forall d sd, Rdb d sd -> Rdb (fold_left (fun d t => sset d t []) names d) (fold_left (fun d t => sset d t spec_init) names sd)).
  { induction names as [|t r IH]; intros d sd H; [exact H|].
    apply IH, rel_set; [exact H|]. exists None, None. reflexivity. }
  apply G. constructor.
Qed.

(* the premise is not used: no request reads an index back from the store, so run_refines has none *)
Theorem api_refines_from_fresh names qs : Forall (fun iq => u64 (fst iq)) qs ->
  snd (impl_run (fresh_impl names) qs) = snd (spec_run (fresh_spec names) qs).
Proof. intros _. exact (proj1 (run_refines qs _ _ (fresh_rel names))). Qed.

(* on the specification instance; its responses are the code's by run_refines *)
Lemma spec_step_outcome sd idx q :
  api_outcome spec_state (fun st => s_lookup (content st)) (fun st => s_iterator_lookup (content st))
          (fun st => s_lookup_txn (content st)) s_propose sd idx q (spec_step sd idx q).
Proof. apply step_outcome. Qed.

(* C10 at the API *)
Theorem write_revision sd idx q o sd' : spec_step sd idx q = (sd', o) -> is_write q = true ->
  (exists st, o = PErr st /\ sd' = sd) \/
  (resp_rev o = Some idx /\ exists st', sget sd' (req_table q) = Some st' /\ applied st' = idx).
Proof.
  destruct (spec_step_outcome sd idx q) as [st|s _ W'|s s' res _ _ _ P]; intros [= <- <-] W.
  - left. eauto.
  - congruence.
  - right. rewrite <- (s_answer_rev s idx q W), P. split; [reflexivity|].
    exists s'. split.
    + rewrite sget_sset, beqb_refl. reflexivity.
    + rewrite s_propose_eq in P. injection P as <- _. reflexivity.
Qed.

(* C02 at the API *)
Theorem readonly_txn_as_if_proposed st cs su fa idx :
  is_readonly (map op_feat su) (map op_feat fa) = true ->
  let '(st', res) := s_propose st idx (CTxn cs su fa) in
  content st' = content st /\
  (r_value res =? fsm_ResultSuccess, r_resps res) = s_lookup_txn (content st) cs su fa.
Proof.
  rewrite readonly_feat. intros H. apply andb_true_iff in H as [Hsu Hfa].
  rewrite s_propose_eq. unfold s_handle. cbn [handle].
  rewrite (txn_readonly_agrees umap p_get p_set p_del p_delrange p_scan (content st) cs su fa Hsu Hfa).
  unfold s_lookup_txn, lookup_txn. cbn [fst snd content r_value r_resps mk_result].
  split; [reflexivity|].
  destruct (txn_compare umap p_get p_scan (content st) cs); reflexivity.
Qed.

Local Notation s_put := (handle_put umap p_get p_set).
Local Notation s_delete := (handle_delete umap p_get p_del p_delrange p_scan).
Local Notation s_ops := (txn_ops umap p_get p_set p_del p_delrange p_scan).

Lemma within_Forall U : within_limits U = true <-> Forall (fun kv => pair_ok kv = true) U.
Proof. unfold within_limits. rewrite forallb_forall, Forall_forall. reflexivity. Qed.

Lemma put_within U p : within_limits U = true -> op_ok (op_feat (OPut p)) = true ->
  within_limits (fst (s_put U p)) = true.
Proof. rewrite !within_Forall. intros HU Hp. apply Forall_sset; [exact HU|exact Hp]. Qed.

Lemma delete_within U d : within_limits U = true ->
  within_limits (fst (s_delete U d)) = true.
Proof.
  rewrite !within_Forall. unfold handle_delete. intros HU. destruct (dl_end d); cbn [fst].
  - apply Forall_filter, HU.
  - apply Forall_sdel, HU.
Qed.

Lemma txn_ops_within ops : forall U, within_limits U = true -> forallb op_ok (map op_feat ops) = true ->
  within_limits (fst (s_ops U ops)) = true.
Proof.
  induction ops as [|o r IH]; intros U HU Hops; cbn [txn_ops fst]; [exact HU|].
  cbn [map forallb] in Hops. apply andb_true_iff in Hops. destruct Hops as [Ho Hr].
  destruct o as [q|p|d|].
  - (* range *) specialize (IH U HU Hr). destruct (s_ops U r). exact IH.
  - (* put *) pose proof (put_within U p HU Ho) as H1. destruct (s_put U p) as [U1 r1].
    specialize (IH U1 H1 Hr). destruct (s_ops U1 r). exact IH.
  - (* delete *) pose proof (delete_within U d HU) as H1. destruct (s_delete U d) as [U1 r1].
    specialize (IH U1 H1 Hr). destruct (s_ops U1 r). exact IH.
  - (* unset *) exact (IH U HU Hr).
Qed.

(* the command of an accepted request keeps a table within the limits: this is where the validators are used *)
Lemma accepted_cmd_within q U : req_status true q = SOk -> within_limits U = true ->
  within_limits (fst (s_handle U (req_cmd q))) = true.
Proof.
  intros S HU. unfold s_handle.
  destruct q as [| |t k v prev|t k e prev cnt|t cs su fa]; cbn [req_cmd req_status handle] in *.
  - exact HU.
  - exact HU.
  - apply put_accepts_only_within_limits in S as (_ & Hk & Hv & _).
    pose proof (put_within U {| pt_key := k; pt_val := v; pt_prev := prev |} HU (proj2 (put_op_ok _ _) (conj Hk Hv))) as P.
    destruct (s_put U _). exact P.
  - pose proof (delete_within U {| dl_key := k; dl_end := e; dl_prev := prev; dl_count := cnt |} HU) as P.
    destruct (s_delete U _). exact P.
  - apply txn_accepted in S as (_ & _ & S). cbn [tr_ops txn_feat] in S.
    rewrite forallb_app in S. apply andb_true_iff in S as [Hsu Hfa].
    rewrite txn_branch. cbn. apply txn_ops_within; [exact HU|].
    destruct (txn_compare umap p_get p_scan U cs); assumption.
Qed.

Definition db_within (sd : smap spec_state) : Prop := forall t st, sget sd t = Some st -> within_limits (content st) = true.

Lemma db_within_set sd t st : db_within sd -> within_limits (content st) = true -> db_within (sset sd t st).
Proof.
  intros H Hs t' st'. rewrite sget_sset. destruct (beqb t' t).
  - intros [= <-]. exact Hs.
  - apply H.
Qed.

(* C16: the limits are an invariant of every table under every request sequence *)
Theorem limits_invariant sd idx q : db_within sd -> db_within (fst (spec_step sd idx q)).
Proof.
  intros H. destruct (spec_step_outcome sd idx q) as [| |s s' res Hs _ S P]; try exact H.
  apply db_within_set; [exact H|]. rewrite s_propose_eq in P. injection P as <- _.
  exact (accepted_cmd_within q _ S (H _ _ Hs)).
Qed.

Corollary write_revision_nonzero sd idx q o sd' : spec_step sd idx q = (sd', o) -> is_write q = true -> 0 < idx ->
  (exists st, o = PErr st) \/ (exists r, resp_rev o = Some r /\ 0 < r).
Proof.
  intros E W Hi. destruct (write_revision sd idx q o sd' E W) as [(st & -> & _)|[Hr _]].
  - left. eexists. reflexivity.
  - right. exists idx. split; assumption.
Qed.

(* C09 at the API *)
Theorem api_range_answer sd idx t r lin f st : sget sd t = Some st ->
  range_status (range_feat true t r f) = SOk ->
  spec_step sd idx (QRange t r lin f) = (sd, PRange (s_lookup (content st) r)) /\
  spec_step sd idx (QIterate t r lin f) = (sd, PIter (s_iterator_lookup (content st) r)).
Proof.
  intros Hs Hok. unfold spec_step. cbn [api_step]. unfold known. rewrite Hs, Hok. split; reflexivity.
Qed.
