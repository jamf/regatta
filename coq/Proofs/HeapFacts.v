(* util/heap: Push and New permute the slice, Pop removes exactly the root (C11).  Fix and Remove have no lemma. *)
From Coq Require Import Lia Permutation.
From Verif Require Import Model.Heap.

Section Facts.
  Variable A : Type.
  Variable less : A -> A -> bool.
  Variable dflt : A.
  Notation hnth := (hnth A dflt).
  Notation set_nth := (set_nth A).
  Notation swap := (swap A dflt).

  Lemma set_nth_length l : forall i x, length (set_nth l i x) = length l.
  Proof. induction l as [|y r IH]; intros [|i] x; simpl; auto. Qed.

  Lemma swap_length l i j : length (swap l i j) = length l.
  Proof. unfold swap. now rewrite !set_nth_length. Qed.

  Lemma hnth_set_nth_same l : forall i x, (i < length l)%nat -> hnth (set_nth l i x) i = x.
  Proof.
    unfold Heap.hnth. induction l as [|y r IH]; intros [|i] x H; simpl in *; try lia.
    - reflexivity.
    - apply IH. lia.
  Qed.

  Lemma hnth_set_nth_other l : forall i j x, i <> j -> hnth (set_nth l i x) j = hnth l j.
  Proof.
    unfold Heap.hnth. induction l as [|y r IH]; intros [|i] [|j] x H; simpl; try reflexivity; try congruence.
    apply IH. congruence.
  Qed.

  Lemma hnth_swap_l l i j : (i < length l)%nat -> hnth (swap l i j) i = hnth l j.
  Proof.
    intros Hi. unfold Heap.swap. destruct (Nat.eq_dec j i) as [->|Hne].
    - apply hnth_set_nth_same. now rewrite set_nth_length.
    - rewrite hnth_set_nth_other by exact Hne. now apply hnth_set_nth_same.
  Qed.
  Lemma hnth_swap_r l i j : (j < length l)%nat -> hnth (swap l i j) j = hnth l i.
  Proof. intros Hj. apply hnth_set_nth_same. now rewrite set_nth_length. Qed.
  Lemma hnth_swap_other l i j k : k <> i -> k <> j -> hnth (swap l i j) k = hnth l k.
  Proof. intros Hi Hj. unfold Heap.swap. rewrite !hnth_set_nth_other by congruence. reflexivity. Qed.

  Lemma set_nth_perm l : forall j a, (j < length l)%nat -> Permutation (hnth l j :: set_nth l j a) (a :: l).
  Proof.
    unfold Heap.hnth. induction l as [|y r IH]; intros [|j] a H; simpl in *; try lia.
    - apply perm_swap.
    - specialize (IH j a ltac:(lia)).
      eapply perm_trans; [apply perm_swap|]. eapply perm_trans; [apply perm_skip, IH|]. apply perm_swap.
  Qed.

  Lemma swap_perm l i j : (i < length l)%nat -> (j < length l)%nat -> Permutation (swap l i j) l.
  Proof.
    intros Hi Hj. unfold swap. set (l1 := set_nth l i (hnth l j)).
    assert (E : hnth l1 j = hnth l j).
    { unfold l1. destruct (Nat.eq_dec i j) as [->|Hne]; [now apply hnth_set_nth_same|now apply hnth_set_nth_other]. }
    (* l[j] :: swap ~ l[i] :: l1 ~ l[j] :: l, one write at a time *)
    pose proof (set_nth_perm l1 j (hnth l i)) as H2. rewrite E in H2.
    apply (Permutation_cons_inv (a := hnth l j)).
    eapply perm_trans; [apply H2; unfold l1; now rewrite set_nth_length|exact (set_nth_perm l i _ Hi)].
  Qed.

  Lemma up_perm fuel : forall l j, (j < length l)%nat -> Permutation (up A less dflt fuel l j) l.
  Proof.
    induction fuel as [|f IH]; intros l j Hj; cbn [up]; [apply Permutation_refl|].
    destruct ((((j - 1) / 2) =? j)%nat || negb (less (hnth l j) (hnth l ((j - 1) / 2)))); [apply Permutation_refl|].
    assert (Hi : ((j - 1) / 2 < length l)%nat).
    { assert ((j - 1) / 2 <= j - 1)%nat by (apply Nat.div_le_upper_bound; lia). lia. }
    eapply perm_trans; [apply IH; now rewrite swap_length|]. now apply swap_perm.
  Qed.

  (* one round of down(): the child that i is compared with *)
  Definition child (l : list A) (i n : nat) : nat :=
    if ((2 * i + 1 + 1 <? n)%nat && less (hnth l (2 * i + 1 + 1)) (hnth l (2 * i + 1)))%bool then (2 * i + 1 + 1)%nat else (2 * i + 1)%nat.
  Lemma down_go_S f l i n : down_go A less dflt (S f) l i n =
    if (n <=? 2 * i + 1)%nat then (l, i)
    else if negb (less (hnth l (child l i n)) (hnth l i)) then (l, i)
         else down_go A less dflt f (swap l i (child l i n)) (child l i n) n.
  Proof. reflexivity. Qed.
  Lemma child_range l i n : (2 * i + 1 < n)%nat -> (2 * i + 1 <= child l i n <= 2 * i + 2)%nat /\ (child l i n < n)%nat.
  Proof. intros H. unfold child. destruct (Nat.ltb_spec (2 * i + 1 + 1) n); cbn [andb]; [destruct (less _ _)|]; lia. Qed.

  (* every property of the slice that an exchange of two slots below n keeps is kept by down(i, n) *)
  Lemma down_go_keeps (P : list A -> Prop) n :
    (forall l i j, (i < n)%nat -> (j < n)%nat -> P l -> P (swap l i j)) ->
    forall fuel l i, P l -> P (fst (down_go A less dflt fuel l i n)).
  Proof.
    intros HP. induction fuel as [|f IH]; intros l i Hl; [exact Hl|]. rewrite down_go_S.
    destruct (Nat.leb_spec n (2 * i + 1)) as [H|H]; [exact Hl|].
    destruct (negb _); [exact Hl|]. pose proof (child_range l i n H). apply IH, HP; [lia..|exact Hl].
  Qed.

  Lemma down_go_perm fuel l i n : (n <= length l)%nat -> Permutation (fst (down_go A less dflt fuel l i n)) l.
  Proof.
    intros Hn. apply (down_go_keeps (fun l' => Permutation l' l) n); [|apply Permutation_refl].
    intros l' a b Ha Hb Hp. eapply perm_trans; [apply swap_perm; rewrite (Permutation_length Hp); lia|exact Hp].
  Qed.

  Lemma down_go_above fuel l i n k : (n <= k)%nat -> hnth (fst (down_go A less dflt fuel l i n)) k = hnth l k.
  Proof.
    intros Hk. apply (down_go_keeps (fun l' => hnth l' k = hnth l k) n); [|reflexivity].
    intros l' a b Ha Hb <-. apply hnth_swap_other; lia.
  Qed.

  Lemma down_go_length fuel l i n : length (fst (down_go A less dflt fuel l i n)) = length l.
  Proof.
    apply (down_go_keeps (fun l' => length l' = length l) n); [|reflexivity].
    intros l' a b _ _ <-. apply swap_length.
  Qed.

  Lemma down_fst l i n : fst (down A less dflt l i n) = fst (down_go A less dflt (length l) l i n).
  Proof. unfold down. destruct (down_go A less dflt (length l) l i n). reflexivity. Qed.

  Lemma push_perm l x : Permutation (push A less dflt l x) (x :: l).
  Proof.
    unfold push. eapply perm_trans; [apply up_perm; rewrite app_length; simpl; lia|].
    apply Permutation_sym, Permutation_cons_append.
  Qed.

  Lemma split_last (l : list A) : forall n, length l = S n -> l = firstn n l ++ [hnth l n].
  Proof.
    unfold Heap.hnth. induction l as [|y t IH]; intros n Hl; simpl in Hl; [lia|].
    destruct n as [|n].
    - destruct t; simpl in *; [reflexivity|lia].
    - simpl. f_equal. apply IH. lia.
  Qed.

  Lemma pop_spec l x l' : pop A less dflt l = Some (x, l') ->
    exists r, l = x :: r /\ Permutation l' r.
  Proof.
    unfold pop. destruct l as [|a r]; [discriminate|]. intros [= <- <-].
    rewrite Nat.sub_0_r, down_fst. set (l := a :: r). set (n := length r).
    assert (Hn : length l = S n) by reflexivity.
    set (l2 := fst (down_go A less dflt _ (swap l 0 n) 0 n)).
    assert (Hp : Permutation l2 l).
    { eapply perm_trans; [apply down_go_perm; rewrite swap_length|apply swap_perm]; lia. }
    assert (Hroot : hnth l2 n = a) by (unfold l2; rewrite down_go_above, hnth_swap_r by lia; reflexivity).
    exists r. rewrite Hroot. split; [reflexivity|].
    apply (Permutation_cons_inv (a := a)). eapply perm_trans; [apply Permutation_cons_append|].
    pose proof (split_last l2 n ltac:(now rewrite (Permutation_length Hp))) as Hs. rewrite Hroot in Hs.
    rewrite <- Hs. exact Hp.
  Qed.

  Lemma pop_cons a r : exists l', pop A less dflt (a :: r) = Some (a, l') /\ Permutation l' r.
  Proof.
    destruct (pop A less dflt (a :: r)) as [[x l']|] eqn:Ep; [|discriminate].
    destruct (pop_spec _ _ _ Ep) as (r0 & [= <- <-] & Hp). now exists l'.
  Qed.

  Lemma pop_length l x l' : pop A less dflt l = Some (x, l') -> length l = S (length l').
  Proof. intros Hp. destruct (pop_spec l x l' Hp) as [r [-> Hperm]]. cbn. now rewrite (Permutation_length Hperm). Qed.

  Lemma heapify_go_perm k : forall l, Permutation (heapify_go A less dflt k l) l.
  Proof.
    induction k as [|k IH]; intros l; cbn [heapify_go]; [apply Permutation_refl|].
    eapply perm_trans; [apply IH|]. rewrite down_fst. now apply down_go_perm.
  Qed.

  Lemma heapify_perm l : Permutation (heapify A less dflt l) l.
  Proof. apply heapify_go_perm. Qed.
End Facts.
