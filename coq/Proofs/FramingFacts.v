From Verif Require Import Model.Framing Proofs.BytesFacts.

Definition msg_ok (m : bytes) : Prop := N.of_nat (length m) < 2 ^ 64.

Lemma unframe_step fuel m rest : m <> [] -> msg_ok m ->
  unframe (S fuel) (frame1 m ++ rest) = option_map (cons m) (unframe fuel rest).
Proof.
  intros Hne Hok.
  replace (frame1 m) with (le_bytes 8 (N.of_nat (length m)) ++ m) by (destruct m; [congruence|reflexivity]).
  rewrite <- app_assoc.
  pose proof (le_bytes_length 8 (N.of_nat (length m))) as Hhd. set (hd := le_bytes 8 _) in *.
  (* the input is not empty: step past the reader's end-of-input test *)
  destruct (hd ++ m ++ rest) eqn:E; [destruct hd; discriminate|]. cbn [unframe]. rewrite <- E.
  rewrite (app_not_short 8 hd), (firstn_app_len 8 hd), (skipn_app_len 8 hd) by exact Hhd.
  unfold hd. rewrite (le_val_bytes 8 _ Hok), Nnat.Nat2N.id.
  now rewrite (app_not_short _ m), (firstn_app_len _ m), (skipn_app_len _ m).
Qed.

(* snapshotFile.Write skips zero-length writes: they leave no frame *)
Theorem unframe_frame ms : Forall msg_ok ms -> forall fuel, (length ms <= fuel)%nat ->
  unframe fuel (frame ms) = Some (filter (fun m => negb (Nat.eqb (length m) 0)) ms).
Proof.
  induction 1 as [|m r Hm _ IH]; intros fuel Hf; [destruct fuel; reflexivity|].
  unfold frame. cbn [map concat filter length] in *. fold (frame r).
  destruct m as [|b m'].
  - apply IH, Nat.lt_le_incl, Hf.
  - destruct fuel as [|fuel]; [inversion Hf|].
    rewrite unframe_step; [|discriminate|exact Hm]. now rewrite (IH fuel (le_S_n _ _ Hf)).
Qed.

Theorem unchunk_chunks sizes : forall s, unchunk (chunks sizes s) = s.
Proof.
  unfold unchunk. induction sizes as [|n r IH]; intros s; destruct s as [|b s']; cbn [chunks]; try reflexivity.
  - simpl. now rewrite app_nil_r.
  - destruct n as [|n]; [apply IH|]. cbn [concat]. rewrite IH. apply firstn_skipn.
Qed.

Theorem framing_roundtrip ms sizes : Forall msg_ok ms ->
  unframe (length ms) (unchunk (chunks sizes (frame ms))) = Some (filter (fun m => negb (Nat.eqb (length m) 0)) ms).
Proof. intros H. rewrite unchunk_chunks. now apply unframe_frame. Qed.

Section Compressed.
  Variable compress decompress : bytes -> bytes.
  Hypothesis roundtrip : forall s, decompress (compress s) = s.
  Theorem compressed_framing_roundtrip ms sizes : Forall msg_ok ms ->
    unframe (length ms) (decompress (unchunk (chunks sizes (compress (frame ms))))) =
    Some (filter (fun m => negb (Nat.eqb (length m) 0)) ms).
  Proof. intros H. rewrite unchunk_chunks, roundtrip. now apply unframe_frame. Qed.
End Compressed.
