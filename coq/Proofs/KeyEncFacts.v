From Coq Require Import Lia.
From Verif Require Import Model.KeyEnc Proofs.BytesFacts.

Lemma hdr_len : length hdr = N.to_nat key_headerLen.
Proof. reflexivity. Qed.

Lemma hdr_head : exists t, hdr = key_V1 :: t.
Proof. eexists; reflexivity. Qed.

Lemma encode_len ty k : length (encode ty k) = (N.to_nat key_headerLen + 1 + length k)%nat.
Proof. unfold encode. rewrite app_length, hdr_len. simpl. lia. Qed.

Lemma encode_long ty k : N.of_nat (length (encode ty k)) <? key_headerLen = false.
Proof. rewrite encode_len. apply N.ltb_ge. lia. Qed.

(* decoding what the encoder wrote; the quirk: an EMPTY user key decodes to the zero key *)
Lemma decode_encode ty k : k <> [] -> decode_bytes (encode ty k) = inl (ty, k).
Proof.
  intros Hk. unfold decode_bytes. rewrite encode_long.
  unfold encode. rewrite (skipn_app_len _ hdr) by apply hdr_len.
  destruct hdr_head as [t ->]. cbn [app]. rewrite N.eqb_refl.
  destruct k; [congruence|reflexivity].
Qed.

Lemma decode_encode_empty ty : decode_bytes (encode ty []) = inl (key_TypeUnknown, []).
Proof. reflexivity. Qed.

Lemma decode_stream_encode ty k :
  (length k < N.to_nat (key_V1KeyLen - key_headerLen))%nat -> decode_stream (encode ty k) = inl (ty, k).
Proof.
  intros Hk. unfold decode_stream. rewrite encode_long.
  unfold encode. rewrite (firstn_app_len _ hdr), (skipn_app_len _ hdr) by apply hdr_len.
  change (existsb (fun b : N => negb (b =? 0)) (tl hdr)) with false. cbv iota.
  destruct hdr_head as [t ->]. rewrite N.eqb_refl.
  rewrite firstn_all2 by (cbn [length]; lia). reflexivity.
Qed.

Lemma encode_inj ty a b : encode ty a = encode ty b -> a = b.
Proof. unfold encode. intros H. apply app_inv_head in H. congruence. Qed.

Lemma encode_order ty a b : lex_compare (encode ty a) (encode ty b) = lex_compare a b.
Proof. unfold encode. rewrite lex_prefix. simpl. now rewrite N.compare_refl. Qed.

Lemma encode_type_order t1 t2 a b : t1 < t2 -> lex_compare (encode t1 a) (encode t2 b) = Lt.
Proof.
  intros H. unfold encode. rewrite lex_prefix. simpl.
  now rewrite (proj2 (N.compare_lt_iff t1 t2) H).
Qed.

Lemma incr_aux_len l : length (fst (incr_aux l)) = length l.
Proof.
  induction l as [|x r IH]; simpl; [reflexivity|].
  destruct (incr_aux r) as [r' c]; simpl in *. destruct c; simpl; lia.
Qed.

Lemma incr_aux_ff n : incr_aux (repeat 255 n) = (repeat 0 n, true).
Proof. induction n as [|n IH]; [reflexivity|]. cbn [repeat incr_aux]. now rewrite IH. Qed.

Lemma incr_aux_app l r r' : incr_aux r = (r', false) -> incr_aux (l ++ r) = (l ++ r', false).
Proof. intros H. induction l as [|x l IH]; cbn [app incr_aux]; [exact H|]. now rewrite IH. Qed.

(* the only shape [incr] is ever applied to: maxUserKey *)
Lemma incr_ff l x n : x < 255 -> incr (l ++ x :: repeat 255 n) = l ++ (x + 1) :: repeat 0 n.
Proof.
  intros Hx. unfold incr. destruct (l ++ x :: repeat 255 n) eqn:E; [destruct l; discriminate|]. rewrite <- E.
  rewrite (incr_aux_app l _ ((x + 1) :: repeat 0 n)); [reflexivity|].
  cbn [incr_aux]. rewrite incr_aux_ff, N.mod_small by lia.
  destruct (N.eqb_spec (x + 1) 0); [lia|reflexivity].
Qed.

Lemma wildcard_upper_eq :
  wildcard_upper = encode (key_TypeUser + 1) (repeat 0 (N.to_nat key_LatestMaxKeyLen)).
Proof. unfold wildcard_upper, maxUserKey, enc, encode. now apply incr_ff. Qed.

Lemma wildcard_covers_all_user_keys k : blt (enc k) wildcard_upper.
Proof. rewrite wildcard_upper_eq. now apply encode_type_order. Qed.

Lemma low_wildcard_is_minimum k : k <> [] -> ble [0] k.
Proof.
  destruct k as [|x k]; [congruence|]. intros _. unfold ble. simpl.
  destruct x; [destruct k|]; discriminate.
Qed.

Lemma range_bounds_agree lo hi k :
  in_bounds (enc lo, enc hi) (enc k) = bleb lo k && bltb k hi.
Proof. unfold in_bounds, bleb, bltb, enc; cbn [fst snd]. now rewrite !encode_order. Qed.

Definition sys_name (s : bytes) : bytes := skipn (N.to_nat key_headerLen + 1) s.

(* by computation on the byte strings genconst prints: this is where they are checked to be V1 system keys *)
Lemma sysLocalIndex_enc : sysLocalIndex = encode key_TypeSystem (sys_name sysLocalIndex).
Proof. reflexivity. Qed.
Lemma sysLeaderIndex_enc : sysLeaderIndex = encode key_TypeSystem (sys_name sysLeaderIndex).
Proof. reflexivity. Qed.

Lemma enc_lt_sys_key n k : blt (enc k) (encode key_TypeSystem n).
Proof. now apply encode_type_order. Qed.

(* on regenerated constants: if this fails, a system key may fall inside the wildcard range *)
Lemma type_system_next : key_TypeSystem = key_TypeUser + 1.
Proof. reflexivity. Qed.

(* a system key whose name is not below 0^n lies outside every range a request can express *)
Lemma sys_outside_bounds n lo hi :
  bltb n (repeat 0 (N.to_nat key_LatestMaxKeyLen)) = false ->
  in_bounds (bounds lo hi) (encode key_TypeSystem n) = false.
Proof.
  intros Hw. unfold in_bounds, bounds; cbn [fst snd].
  destruct (beqb hi wildcard).
  - rewrite wildcard_upper_eq, <- type_system_next. unfold bltb in *.
    rewrite encode_order, Hw. apply andb_false_r.
  - unfold bltb. rewrite lex_antisym, (enc_lt_sys_key n hi). apply andb_false_r.
Qed.

Lemma sys_keys_outside_user_ranges lo hi :
  in_bounds (bounds lo hi) sysLocalIndex = false /\ in_bounds (bounds lo hi) sysLeaderIndex = false.
Proof.
  split.
  - rewrite sysLocalIndex_enc. now apply sys_outside_bounds.
  - rewrite sysLeaderIndex_enc. now apply sys_outside_bounds.
Qed.

Lemma enc_ne_sys_key k n : enc k <> encode key_TypeSystem n.
Proof. intros E. apply (lex_lt_irrefl (enc k)). rewrite E at 2. apply enc_lt_sys_key. Qed.

Lemma enc_ne_bookkeeping k : enc k <> sysLocalIndex /\ enc k <> sysLeaderIndex.
Proof. rewrite sysLocalIndex_enc, sysLeaderIndex_enc. split; apply enc_ne_sys_key. Qed.

Lemma sys_keys_decode_system :
  decode_bytes sysLocalIndex = inl (key_TypeSystem, sys_name sysLocalIndex) /\
  decode_bytes sysLeaderIndex = inl (key_TypeSystem, sys_name sysLeaderIndex) /\
  sysLocalIndex <> sysLeaderIndex.
Proof. repeat split; try reflexivity. discriminate. Qed.
