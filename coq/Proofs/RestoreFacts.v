From Verif Require Import Model.Restore Proofs.SMapFacts.

Definition kvs_of (ms : list smsg) : list (bytes * bytes) :=
  concat (map (fun m => match m_kv m with Some kv => [kv] | None => [] end) ms).

Lemma rit_lossless mx ms : forall est batch li,
  concat (map fst (rit_gen true true mx ms est batch li)) = batch ++ map Some (kvs_of ms).
Proof.
  induction ms as [|m r IH]; intros est batch li; cbn [rit_gen]; [reflexivity|].
  (* cut or not after m, what m carries has joined the batch *)
  transitivity ((batch ++ match m_kv m with Some kv => [Some kv] | None => [] end) ++ map Some (kvs_of r)).
  - destruct (est + m_size m <? mx / 2); cbn [map concat fst]; now rewrite IH.
  - rewrite <- app_assoc. unfold kvs_of. cbn [map concat]. now destruct (m_kv m).
Qed.

Theorem batches_lossless mx ms :
  concat (map p_batch (read_into_table mx ms)) = kvs_of ms.
Proof.
  unfold read_into_table. rewrite map_map. cbn [to_proposal p_batch].
  rewrite <- (map_map fst (map elem_kv)), <- concat_map, rit_lossless. cbn [app]. rewrite map_map. apply map_id.
Qed.

Definition last_leader (ps : list proposal) : option N :=
  fold_left (fun acc p => match p_leader p with Some l => Some l | None => acc end) ps None.

(* the fold of [last_leader] from any [acc]: after a cut the induction resumes with what the fold has so far *)
Lemma rit_last_leader mx body d i : m_leader d = Some i -> forall est batch li acc,
  fold_left (fun acc p => match p_leader p with Some l => Some l | None => acc end)
            (map to_proposal (rit_gen true true mx (body ++ [d]) est batch li)) acc = Some i.
Proof.
  intros Hd. induction body as [|b body IH]; intros est batch li acc; cbn [app rit_gen].
  - rewrite Hd. destruct (est + m_size d <? mx / 2); reflexivity.
  - destruct (est + m_size b <? mx / 2); [apply IH|]. cbn [map fold_left]. apply IH.
Qed.

Theorem declared_leader_index mx U size_of i :
  last_leader (read_into_table mx (table_stream size_of U (Some i))) = Some i.
Proof. now apply rit_last_leader. Qed.

Lemma put_batch_fold kvs : forall s, fst (put_batch umap p_get p_set s kvs) = fold_left (fun s kv => sset s (fst kv) (snd kv)) kvs s.
Proof.
  induction kvs as [|[k v] r IH]; intros s; cbn [put_batch fold_left]; [reflexivity|].
  unfold handle_put at 1. cbn [pt_prev pt_key pt_val].
  specialize (IH (p_set s k v)). destruct (put_batch umap p_get p_set (p_set s k v) r) as [s' rs]. simpl in *. exact IH.
Qed.

(* inserting an ascending run of keys one by one, all above what is there, appends it *)
Lemma fold_sset_sorted (l2 : umap) : forall l1 : umap, sorted (l1 ++ l2) ->
  fold_left (fun s kv => sset s (fst kv) (snd kv)) l2 l1 = l1 ++ l2.
Proof.
  induction l2 as [|[k v] r IH]; intros l1 Hs; cbn [fold_left fst snd]; [now rewrite app_nil_r|].
  pose proof (sset_app_above l1 [] k v (sorted_app_above l1 r (k, v) Hs)) as E. rewrite app_nil_r in E.
  rewrite E. cbn [sset]. rewrite IH; rewrite <- app_assoc; [reflexivity|exact Hs].
Qed.

Lemma restored_fold ps : forall st,
  fst (fold_left apply_proposal ps st) = fold_left (fun s kv => sset s (fst kv) (snd kv)) (concat (map p_batch ps)) (fst st).
Proof.
  induction ps as [|p r IH]; intros st; cbn [fold_left map concat]; [reflexivity|].
  rewrite IH. unfold apply_proposal. cbn [fst]. unfold s_handle. cbn [handle].
  pose proof (put_batch_fold (p_batch p) (fst st)) as Hp.
  destruct (put_batch umap p_get p_set (fst st) (p_batch p)) as [s' rs]. cbn [fst] in *. rewrite Hp.
  now rewrite fold_left_app.
Qed.

Lemma restored_leader ps st :
  snd (fold_left apply_proposal ps st) = match last_leader ps with Some l => l | None => snd st end.
Proof.
  induction ps as [|p ps IH] using rev_ind; [reflexivity|].
  unfold last_leader in *. rewrite !fold_left_app. cbn [fold_left apply_proposal snd].
  destruct (p_leader p); [reflexivity|exact IH].
Qed.

Lemma kvs_of_table_stream size_of U final : kvs_of (table_stream size_of U final) = U.
Proof.
  induction U as [|a r IH]; [now destruct final|].
  change (kvs_of (table_stream size_of (a :: r) final)) with (a :: kvs_of (table_stream size_of r final)).
  now rewrite IH.
Qed.

Lemma restored_content mx size_of U final : sorted U ->
  fst (restored (read_into_table mx (table_stream size_of U final))) = U.
Proof.
  intros Hs. unfold restored. rewrite restored_fold, batches_lossless, kvs_of_table_stream.
  apply (fold_sset_sorted U []), Hs.
Qed.

Theorem restore_exact mx size_of U i : sorted U ->
  restored (read_into_table mx (table_stream size_of U (Some i))) = (U, i).
Proof.
  intros Hs. apply injective_projections; [now apply restored_content|].
  unfold restored. now rewrite restored_leader, declared_leader_index.
Qed.
