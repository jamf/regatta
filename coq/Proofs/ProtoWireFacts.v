From Coq Require Import Lia.
From Verif Require Import Model.ProtoWire Proofs.BytesFacts.

Lemma varint_enc_S f x :
  varint_enc (S f) x = if x <? 128 then [x] else (x mod 128 + 128) :: varint_enc f (x / 128).
Proof. reflexivity. Qed.

Lemma varint_dec_cons f b r :
  varint_dec (S f) (b :: r) =
  if b <? 128 then Some (b, r)
  else match varint_dec f r with Some (v, r') => Some ((b - 128) + 128 * v, r') | None => None end.
Proof. reflexivity. Qed.

Lemma varint_roundtrip_S f : forall x rest, x < 128 ^ N.of_nat (S f) ->
  varint_dec (S f) (varint_enc (S f) x ++ rest) = Some (x, rest).
Proof.
  induction f as [|f IH]; intros x rest Hx; rewrite varint_enc_S; destruct (N.ltb_spec x 128) as [H|H].
  1, 3: cbn [app]; rewrite varint_dec_cons; now rewrite (proj2 (N.ltb_lt x 128) H).
  - now apply N.lt_nge in Hx.
  - cbn [app]. rewrite varint_dec_cons.
    rewrite (proj2 (N.ltb_ge _ _) (N.le_add_l 128 (x mod 128))).
    rewrite IH.
    + rewrite N.add_sub, N.add_comm, <- N.div_mod'. reflexivity.
    + rewrite Nnat.Nat2N.inj_succ, N.pow_succ_r' in Hx. apply N.div_lt_upper_bound; [discriminate|exact Hx].
Qed.

Lemma varint_roundtrip f x rest : (1 <= f)%nat -> x < 128 ^ N.of_nat f ->
  varint_dec f (varint_enc f x ++ rest) = Some (x, rest).
Proof. destruct f as [|f]; [inversion 1|]. intros _. apply varint_roundtrip_S. Qed.

Lemma varint_nonempty f x : varint_enc (S f) x <> [].
Proof. rewrite varint_enc_S. destruct (x <? 128); discriminate. Qed.

Definition u64 (x : N) : Prop := x < 2 ^ 64.
Lemma u64_fuel x : u64 x -> x < 128 ^ N.of_nat 10.
Proof. unfold u64. intros H. eapply N.lt_le_trans; [exact H|]. vm_compute. discriminate. Qed.

(* ten bytes hold every 64-bit value *)
Lemma varint64_roundtrip x rest : u64 x -> varint_dec 10 (varint_enc 10 x ++ rest) = Some (x, rest).
Proof. intros H. apply (varint_roundtrip_S 9), u64_fuel, H. Qed.

(* 2^29 is protobuf's field-number limit; it keeps the tag below 2^64 *)
Definition wf_field (f : field) : Prop :=
  0 < fst f /\ fst f < 2 ^ 29 /\
  match snd f with
  | WVarint v => u64 v
  | WFixed64 b => length b = 8%nat
  | WBytes b => u64 (N.of_nat (length b))
  | WFixed32 b => length b = 4%nat
  end.

Lemma take_app n (a rest : bytes) : length a = n -> take n (a ++ rest) = Some (a, rest).
Proof. intros H. unfold take. now rewrite (app_not_short n a), (firstn_app_len n a), (skipn_app_len n a). Qed.

Lemma tag_split num t : t < 8 -> (num * 8 + t) / 8 = num /\ (num * 8 + t) mod 8 = t.
Proof.
  intros H. rewrite N.add_comm. split.
  - rewrite N.div_add by discriminate. now rewrite N.div_small.
  - rewrite N.mod_add by discriminate. now apply N.mod_small.
Qed.

Lemma field_roundtrip f rest fuel : wf_field f ->
  msg_dec (S fuel) (field_enc f ++ rest) =
  match msg_dec fuel rest with Some fs => Some (f :: fs) | None => None end.
Proof.
  intros (Hp & Hn & Hv). destruct f as [num v]. cbn [fst snd] in *.
  unfold field_enc. cbn [fst snd]. rewrite <- app_assoc.
  assert (Ht : wtype v < 8) by now destruct v.
  assert (Htag : u64 (num * 8 + wtype v)) by (unfold u64; lia).
  (* the input is not empty: step past the decoder's end-of-input test *)
  destruct (varint_enc 10 (num * 8 + wtype v) ++ _) as [|b0 s0] eqn:Es.
  { apply app_eq_nil in Es. destruct Es as [Es _]. now apply (varint_nonempty 9) in Es. }
  cbn [msg_dec]. rewrite <- Es. clear Es b0 s0.
  rewrite (varint64_roundtrip _ _ Htag).
  destruct (tag_split num (wtype v) Ht) as [-> ->].
  destruct v as [x|b|b|b]; cbn [wtype].
  - now rewrite (varint64_roundtrip x rest Hv).
  - now rewrite (take_app 8 b rest Hv).
  - rewrite <- app_assoc, (varint64_roundtrip _ _ Hv), Nnat.Nat2N.id.
    now rewrite (take_app (length b) b rest eq_refl).
  - now rewrite (take_app 4 b rest Hv).
Qed.

Theorem wire_roundtrip fs : Forall wf_field fs -> forall fuel, (length fs <= fuel)%nat ->
  msg_dec fuel (msg_enc fs) = Some fs.
Proof.
  induction 1 as [|f r H1 _ IH]; intros fuel Hf.
  - destruct fuel; reflexivity.
  - destruct fuel as [|fuel]; [inversion Hf|].
    unfold msg_enc. cbn [map concat]. fold (msg_enc r).
    now rewrite (field_roundtrip f (msg_enc r) fuel H1), (IH fuel (le_S_n _ _ Hf)).
Qed.

