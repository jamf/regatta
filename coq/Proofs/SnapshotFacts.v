From Coq Require Import Lia.
From Verif Require Import Model.Snapshot.

Lemma parse_snap_header f : parse_header (snap_header f) = Some f.
Proof. destruct f; reflexivity. Qed.
Lemma snap_header_length f : length (snap_header f) = 8%nat.
Proof. destruct f; reflexivity. Qed.
Lemma snap_header_inj f g : snap_header f = snap_header g -> f = g.
Proof. destruct f, g; intros H; try reflexivity; discriminate. Qed.

Section Replica.
  Variable S : Type.

  (* point in time by construction: [prepare] is the identity on an immutable value, [during] cannot reach [pinned] *)
  Lemma snapshot_faithful (f cfg : sfmt) (s old : S) (during : list (S -> S)) :
    let pinned := prepare S s in
    let saver_now := fold_left (fun x g => g x) during s in
    recover S cfg old (save S f pinned) = Some s.
  Proof. cbn. unfold recover, save. cbn [fst snd]. now rewrite parse_snap_header. Qed.

  Lemma recover_bad_header cfg (old : S) b body : parse_header b = None -> recover S cfg old (b, body) = None.
  Proof. unfold recover. cbn [fst]. now intros ->. Qed.

  Lemma reader_old_or_fail (r r' : rep S) (rd : reader S) v :
    rd = read_start S r -> read_next S r' rd = Some v -> v = r_store S r /\ r_gen S r' = r_gen S r.
  Proof.
    intros -> H. unfold read_next, read_start in H. cbn in H.
    destruct (Nat.eqb_spec (r_gen S r) (r_gen S r')) as [E|E]; [|discriminate]. injection H as <-. now split.
  Qed.
  Lemma reader_after_install (r : rep S) s : read_next S (install S r s) (read_start S r) = None.
  Proof.
    unfold read_next, install, read_start. cbn.
    destruct (Nat.eqb_spec (r_gen S r) (Datatypes.S (r_gen S r))) as [E|E]; [lia|reflexivity].
  Qed.
  Lemma save_interrupted f (pinned : S) stopped failed : stopped || failed = true -> save_to S f pinned stopped failed = SaveError S.
  Proof. unfold save_to. now intros ->. Qed.
  Lemma save_complete f (pinned : S) str : save_to S f pinned false false = SaveDone S str -> str = save S f pinned.
  Proof. unfold save_to. cbn. now intros [= <-]. Qed.
  Lemma lazy_consume_current (r : rep S) : lazy_consume S r = Some (r_store S r).
  Proof. unfold lazy_consume, read_next, read_start. cbn. now rewrite Nat.eqb_refl. Qed.
End Replica.
