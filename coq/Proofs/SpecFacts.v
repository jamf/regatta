From Coq Require Import Sorted.
From Verif Require Import Model.Fsm Model.Spec.
From Verif Require Import Proofs.BytesFacts Proofs.SMapFacts Proofs.CmdLift Proofs.FsmRefine.

Theorem s_handle_sorted c U : sorted U -> sorted (fst (s_handle U c)).
Proof.
  apply (handle_inv umap p_get p_set p_del p_delrange p_scan sorted).
  - intros s k v Hs. now apply sset_sorted.
  - intros s k Hs. now apply sdel_sorted.
  - intros s lo hi Hs. now apply filter_sorted.
Qed.

Lemma spec_entries_sorted es : forall st, sorted (content st) -> sorted (content (fst (spec_entries st es))).
Proof.
  induction es as [|e r IH]; intros st H; [exact H|].
  rewrite spec_entries_cons. apply IH. rewrite spec_entry_eq. now apply s_handle_sorted.
Qed.

Theorem p_scan_spec U lo hi k v : sorted U ->
  (In (k, v) (p_scan U lo hi) <-> sget U k = Some v /\ p_in lo hi k = true).
Proof.
  intros Hs. unfold p_scan. rewrite filter_In. cbn [fst]. rewrite <- (sget_in U k v Hs). tauto.
Qed.

Theorem p_scan_ascending U lo hi : sorted U -> StronglySorted blt (map fst (p_scan U lo hi)).
Proof. intros Hs. apply sorted_keys_ascending. now apply filter_sorted. Qed.

Lemma p_in_explicit lo hi k : hi <> wildcard -> p_in lo hi k = bleb lo k && bltb k hi.
Proof. intros H. unfold p_in. replace (beqb hi wildcard) with false; [reflexivity|]. symmetry. now apply beqb_neq. Qed.
Lemma p_in_wildcard lo k : p_in lo wildcard k = bleb lo k.
Proof. unfold p_in. rewrite beqb_refl. simpl. apply andb_true_r. Qed.
Lemma p_in_inverted lo hi k : hi <> wildcard -> bleb hi lo = true -> p_in lo hi k = false.
Proof.
  intros Hw Hi. rewrite p_in_explicit by assumption.
  destruct (bleb lo k) eqn:E1; [|reflexivity].
  destruct (bltb k hi) eqn:E2; [|reflexivity].
  apply bleb_le in Hi, E1. apply bltb_lt in E2.
  exfalso. apply E1. now rewrite lex_antisym, (lex_lt_le_trans k hi lo E2 Hi).
Qed.

Lemma spec_entries_app a : forall st b,
  spec_entries st (a ++ b) =
  let '(st1, o1) := spec_entries st a in let '(st2, o2) := spec_entries st1 b in (st2, o1 ++ o2).
Proof.
  induction a as [|e r IH]; intros st b; cbn [app spec_entries].
  - destruct (spec_entries st b); reflexivity.
  - destruct (spec_entry st e) as [st1 o]. rewrite IH.
    destruct (spec_entries st1 r) as [st2 o2]. destruct (spec_entries st2 b) as [st3 o3]. reflexivity.
Qed.

Section Ops.
  Variable St : Type.
  Variable get : St -> bytes -> option bytes.
  Variable set : St -> bytes -> bytes -> St.
  Variable del : St -> bytes -> St.
  Variable delrange : St -> bytes -> bytes -> St.
  Variable scan : St -> bytes -> bytes -> list (bytes * bytes).
  Notation ops := (txn_ops St get set del delrange scan).
  Notation op1 := (txn_step St get set del delrange scan).

  Lemma txn_ops_app a : forall s b,
    ops s (a ++ b) = let '(s1, r1) := ops s a in let '(s2, r2) := ops s1 b in (s2, r1 ++ r2).
  Proof.
    induction a as [|op r IH]; intros s b; cbn [app].
    - cbn [txn_ops]. now destruct (ops s b).
    - rewrite !txn_ops_cons. destruct (op1 s op) as [s0 r0]. rewrite IH.
      destruct (ops s0 r) as [s1 r1]. destruct (ops s1 b) as [s2 r2]. now rewrite app_assoc.
  Qed.

  Definition op_set (o : request_op) : bool := match o with OUnset => false | _ => true end.

  Lemma txn_step_length s op : length (snd (op1 s op)) = if op_set op then 1%nat else 0%nat.
  Proof.
    destruct op as [q|p|d|]; cbn [txn_step op_set]; try reflexivity.
    unfold handle_delete. now destruct (dl_end d).
  Qed.

  Lemma txn_ops_length l : forall s, length (snd (ops s l)) = length (filter op_set l).
  Proof.
    induction l as [|op r IH]; intros s; [reflexivity|].
    rewrite txn_ops_cons. pose proof (txn_step_length s op) as H1.
    destruct (op1 s op) as [s0 r0]. specialize (IH s0). destruct (ops s0 r) as [s1 r1].
    cbn [snd filter] in *. rewrite app_length, H1, IH. now destruct (op_set op).
  Qed.

  (* a transaction made of range reads only: state untouched, answers = the read-only path *)
  Definition all_ranges (l : list request_op) : bool := forallb (fun o => match o with ORange _ => true | _ => false end) l.

  Lemma txn_ops_readonly l : forall s, all_ranges l = true ->
    ops s l = (s, map (fun op => RRange (match op with ORange r => lookup St get scan s r
                                                      | _ => lookup St get scan s (plain_req [] None false) end)) l).
  Proof.
    induction l as [|op r IH]; intros s H; [reflexivity|].
    apply andb_true_iff in H. destruct H as [H1 H2].
    destruct op; try discriminate. rewrite txn_ops_cons. cbn [txn_step]. now rewrite (IH s H2).
  Qed.

  Theorem txn_readonly_agrees s cs su fa : all_ranges su = true -> all_ranges fa = true ->
    handle_txn St get set del delrange scan s cs su fa = (s, lookup_txn St get scan s cs su fa).
  Proof.
    intros H1 H2. unfold handle_txn, lookup_txn. destruct (txn_compare St get scan s cs).
    - now rewrite (txn_ops_readonly su s H1).
    - now rewrite (txn_ops_readonly fa s H2).
  Qed.

  Theorem txn_branch s cs su fa :
    handle_txn St get set del delrange scan s cs su fa =
    let ok := txn_compare St get scan s cs in
    (fst (ops s (if ok then su else fa)), (ok, snd (ops s (if ok then su else fa)))).
  Proof. unfold handle_txn. destruct (ops s _); reflexivity. Qed.
End Ops.

Definition holds (U : umap) (c : compare) : Prop :=
  match cm_end c with
  | None => exists v, sget U (cm_key c) = Some v /\ cmp_single c v = true
  | Some hi => (exists kv, In kv (p_scan U (cm_key c) hi)) /\
               (forall k v, In (k, v) (p_scan U (cm_key c) hi) -> cmp_single c v = true)
  end.

Lemma compare_one_holds U c : compare_one umap p_get p_scan U c = true <-> holds U c.
Proof.
  unfold compare_one, holds, p_get. destruct (cm_end c) as [hi|].
  - destruct (p_scan U (cm_key c) hi) as [|kv r]; split.
    + discriminate.
    + now intros [[kv []] _].
    + intros H. split; [exists kv; now left|].
      intros k v Hin. exact (proj1 (forallb_forall _ _) H (k, v) Hin).
    + intros [_ H]. apply forallb_forall. intros [k v] Hin. exact (H k v Hin).
  - destruct (sget U (cm_key c)) as [v|]; split.
    + intros H. now exists v.
    + now intros (v' & [= <-] & H).
    + discriminate.
    + now intros (v' & [=] & _).
Qed.

Theorem txn_compare_holds U cs : txn_compare umap p_get p_scan U cs = true <-> Forall (holds U) cs.
Proof.
  unfold txn_compare. rewrite forallb_forall, Forall_forall.
  split; intros H c Hc; apply compare_one_holds, H, Hc.
Qed.

(* the stored value is on the LEFT of the comparison; an unset target only checks existence *)
Lemma cmp_single_spec c v :
  cmp_single c v = match cm_value c with
                   | None => true
                   | Some t => match cm_result c with
                               | CEq => beqb v t
                               | CNe => negb (beqb v t)
                               | CGt => bltb t v
                               | CLt => bltb v t
                               end
                   end.
Proof.
  unfold cmp_single. destruct (cm_value c) as [t|]; [|reflexivity].
  destruct (cm_result c); try reflexivity.
  unfold bltb. rewrite (lex_antisym v t). destruct (lex_compare v t); reflexivity.
Qed.

Fixpoint run_batches (s : store) (bs : list (list entry)) : store * list result :=
  match bs with
  | [] => (s, [])
  | b :: r => let '(s1, o, _) := Update s b in let '(s2, os) := run_batches s1 r in (s2, o ++ os)
  end.

Definition after_log (st : spec_state) (od : option N) (log : list entry) : option N :=
  match batch_leader log with Some l => Some l | None => od end.

Lemma last_index_app a b i : last_index i (a ++ b) = last_index (last_index i a) b.
Proof. revert i. induction a as [|e r IH]; intros i; [reflexivity|apply IH]. Qed.

Lemma concat_nonempty {A} (bs : list (list A)) : Forall (fun b => b <> []) bs -> bs <> [] -> concat bs <> [].
Proof. intros H Hne. destruct H as [|b r Hb _]; [congruence|]. now destruct b. Qed.

(* any run of non-empty batches, the empty run included: the applied-index entry is written by the last batch *)
Lemma run_batches_repr bs : forall ol od st, Forall (fun b => b <> []) bs ->
  run_batches (repr (content st) ol od) bs =
  (repr (content (fst (spec_entries st (concat bs))))
        (match bs with [] => ol | _ => Some (last_index 0 (concat bs)) end)
        (after_log st od (concat bs)),
   snd (spec_entries st (concat bs))).
Proof.
  induction bs as [|b r IH]; intros ol od st Hne; [reflexivity|].
  inversion Hne as [|? ? Hb Hr]; subst. cbn [run_batches concat].
  rewrite Update_repr, spec_entries_app. destruct (spec_entries st b) as [st1 o1]. cbn [fst snd].
  rewrite (IH _ _ st1 Hr). destruct (spec_entries st1 (concat r)) as [st2 o2]. cbn [fst snd].
  unfold after_log. rewrite batch_leader_app, last_index_app. f_equal. f_equal.
  - destruct r as [|b2 r']; [reflexivity|].
    f_equal. apply last_index_nonempty, concat_nonempty; [exact Hr|discriminate].
  - now destruct (batch_leader (concat r)).
Qed.

Theorem run_batches_refines bs : forall ol od st,
  Forall (fun b => b <> []) bs -> bs <> [] ->
  applied st = dflt ol -> leader st = dflt od ->
  let st' := fst (spec_entries st (concat bs)) in
  run_batches (repr (content st) ol od) bs =
  (repr (content st') (Some (applied st')) (after_log st od (concat bs)), snd (spec_entries st (concat bs))).
Proof.
  intros ol od st Hne Hnn _ _. cbn zeta. rewrite run_batches_repr, spec_entries_applied by exact Hne.
  rewrite (last_index_nonempty (applied st) 0) by now apply concat_nonempty.
  now destruct bs.
Qed.
