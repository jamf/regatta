(* Read-your-writes through a follower node (Model/Forward.v): whenever a call has been answered without error, the node's
   copy of the table has applied a prefix of the leader's log that contains the call's own command at its revision. *)
From Coq Require Import Lia.
From Verif Require Import Model.Forward Proofs.ReplicationFacts Proofs.QueueFacts Proofs.QueueGlobal.

Definition all_of (hs : list (N * list item)) : list item := flat_map snd hs.

Lemma all_of_items hs : all_of hs = all_items hs.
Proof. apply flat_map_concat_map. Qed.

(* step_local in the vocabulary of K *)
Lemma step_local_of s e o s' r : Queue.step s e = (o, s', r) ->
  incl (all_of (heaps s')) (added e ++ all_of (heaps s)) /\
  answered (is_cancelled s) (notified e) (all_of (heaps s)) (answers s) (answers s').
Proof. rewrite !all_of_items. apply step_local. Qed.
Arguments step_local_of {s e o s' r}.

Section Fwd.
  Variables (S C : Type) (app : S -> C -> S) (init : S) (tbl : N).
  Notation node := (node S C).
  Notation fstep := (fstep S C app init tbl).
  Notation lidx := (lidx S C).
  Notation wait := (n_wait S C).
  Notation que := (n_q S C).

  (* K_acked is the point; K_items and K_ans lead from an answer to the wait entry of its call, K_ids makes that entry
     the only one, K_log ties the entry to the leader's log *)
  Record K (n : node) : Prop := {
    K_inv : Inv S C app init (n_sys S C n);
    K_items : forall x, In x (all_of (heaps (que n))) -> exists c, In (it_id x, (N.to_nat (it_rev x), c)) (wait n);
    K_ids : NoDup (map fst (wait n));
    K_ans : forall id a, In (id, a) (answers (que n)) -> In id (map fst (wait n));
    K_acked : forall id r c, acked S C n id -> In (id, (r, c)) (wait n) -> (r <= lidx n)%nat;
    K_log : forall id r c, In (id, (r, c)) (wait n) -> (1 <= r)%nat /\ nth_error (s_log S C (n_sys S C n)) (r - 1) = Some c
  }.

  Lemma K0 : K (node0 S C init).
  Proof.
    constructor; simpl.
    - (* K_inv *) split; [reflexivity|simpl; lia].
    - (* K_items *) intros x [].
    - (* K_ids *) constructor.
    - (* K_ans *) intros id a [].
    - (* K_acked *) intros id r c [].
    - (* K_log *) intros id r c [].
  Qed.

  Lemma wait_unique {V} (l : list (nat * V)) id v v' : NoDup (map fst l) -> In (id, v) l -> In (id, v') l -> v = v'.
  Proof.
    induction l as [|[i p] l IH]; cbn; [contradiction|]. intros ND H1 H2.
    apply NoDup_cons_iff in ND. destruct ND as [Hn Hd].
    destruct H1 as [[= -> ->]|H1], H2 as [[= ->]|H2].
    - reflexivity.
    - elim Hn. exact (in_map fst _ _ H2).
    - elim Hn. exact (in_map fst _ _ H1).
    - now apply IH.
  Qed.

  Lemma nth_grows {A} (l ext : list A) i x : nth_error l i = Some x -> nth_error (l ++ ext) i = Some x.
  Proof. intros H. rewrite nth_error_app1; [exact H|]. apply nth_error_Some. rewrite H. discriminate. Qed.

  (* Any event of the queue but an Add, notifications carrying a value at or below the copy's leader index: all K needs
     to know of the queue is that it queues nobody new and answers only queued waiters for their reason (step_local). *)
  Lemma K_queue n e : K n -> added e = [] -> (forall rev, notified e = Some rev -> (N.to_nat rev <= lidx n)%nat) ->
    K {| n_sys := n_sys S C n; n_q := qstep (que n) e; n_wait := wait n |}.
  Proof.
    intros [Ki Kit Kid Kan Ka Kl] Hadd Hrev. unfold qstep.
    destruct (Queue.step (que n) e) as [[o q'] r] eqn:E. cbn [fst snd].
    destruct (step_local_of E) as (Hi & new & Ea & Hj). rewrite Hadd in Hi.
    constructor; cbn [n_sys n_q n_wait]; [exact Ki| |exact Kid| | |exact Kl].
    - (* K_items *) intros x Hx. apply Kit, Hi, Hx.
    - (* K_ans *) intros id a Hid. rewrite Ea in Hid. apply in_app_or in Hid. destruct Hid as [H|H]; [eapply Kan, H|].
      destruct (Hj _ _ H) as (x & Hx & <- & _). destruct (Kit x Hx) as [c0 Hc0]. exact (in_map fst _ _ Hc0).
    - (* K_acked *) unfold acked, Forward.lidx in *. cbn [n_q n_sys]. intros id r0 c Hid Hw. rewrite Ea in Hid. apply in_app_or in Hid.
      destruct Hid as [H|H]; [exact (Ka _ _ _ H Hw)|].
      destruct (Hj _ _ H) as (x & Hx & <- & _ & Hr). destruct (notified e) as [rev|]; [|contradiction].
      destruct (Kit x Hx) as [c0 Hc0]. pose proof (wait_unique _ _ _ _ Kid Hw Hc0) as [= -> _].
      specialize (Hrev rev eq_refl). lia.
  Qed.

  Definition fact_ok (n : node) (a : fact C) : Prop :=
    match a with FWrite _ id _ => ~ In id (map fst (wait n)) | FRepl _ x => guarded C x = true | _ => True end.

  (* leader and replication activity: the log only grows, the copy's leader index does not fall *)
  Lemma K_repl n x : K n -> guarded C x = true ->
    K {| n_sys := Replication.step S C app init (n_sys S C n) x; n_q := que n; n_wait := wait n |}.
  Proof.
    intros [Ki Kit Kid Kan Ka Kl] Hg. constructor; cbn [n_sys n_q n_wait]; auto.
    - (* K_inv *) apply step_inv; assumption.
    - (* K_acked *) unfold acked, Forward.lidx in *. cbn [n_q n_sys]. intros i r0 c0 Hi Hw.
      pose proof (Ka i r0 c0 Hi Hw). pose proof (step_monotone S C app init _ x Hg Ki). lia.
    - (* K_log *) intros i r0 c0 Hw. destruct (Kl i r0 c0 Hw) as [H1 H2]. split; [exact H1|].
      destruct (log_grows S C app init (n_sys S C n) x) as [ext ->]. apply nth_grows. exact H2.
  Qed.

  (* a call with a new id starts waiting for an entry of the leader's log *)
  Lemma K_wait sys q w id r c : K {| n_sys := sys; n_q := q; n_wait := w |} -> ~ In id (map fst w) ->
    (1 <= r)%nat -> nth_error (s_log S C sys) (r - 1) = Some c ->
    K {| n_sys := sys; n_q := qstep q (EAdd id tbl (N.of_nat r)); n_wait := (id, (r, c)) :: w |}.
  Proof.
    intros [Ki Kit Kid Kan Ka Kl] Hid Hr Hc. constructor; cbn [n_sys n_q n_wait] in *.
    - (* K_inv *) exact Ki.
    - (* K_items *) unfold qstep. intros y Hy.
      apply (proj1 (step_local_of (s := q) (e := EAdd id tbl _) eq_refl)) in Hy.
      destruct Hy as [<-|Hy]; [exists c; left; cbn [it_id it_rev]; now rewrite Nat2N.id|].
      destruct (Kit y Hy) as [c0 H0]. exists c0. right. exact H0.
    - (* K_ids *) constructor; assumption.
    - (* K_ans *) intros i a Hi. right. eapply Kan, Hi.
    - (* K_acked: the new call has no answer yet *)
      intros i r0 c0 Hi [[= <- <- <-]|Hw]; [elim Hid; eapply Kan, Hi|exact (Ka i r0 c0 Hi Hw)].
    - (* K_log *) intros i r0 c0 [[= <- <- <-]|Hw]; [now split|exact (Kl i r0 c0 Hw)].
  Qed.

  Theorem K_step n a : K n -> fact_ok n a -> K (fstep n a).
  Proof.
    intros HK Hok. destruct a as [id c|x| |r|e]; cbn [Forward.fstep fact_ok] in *.
    - (* a write through this node: the leader appends c, the call waits for that entry, the last of the log *)
      apply K_wait; [apply K_repl; [exact HK|reflexivity]|exact Hok|..]; cbn [Replication.step s_log]; rewrite app_length; cbn [length].
      + lia.
      + now rewrite Nat.add_sub, nth_error_app2, Nat.sub_diag.
    - apply K_repl; assumption.
    - apply K_queue; [exact HK|reflexivity|intros rev [= <-]; lia].
    - apply K_queue; [exact HK|reflexivity|intros rev [= <-]; lia].
    - (* Add and Notify reach the queue only as FWrite and FNotify *)
      destruct e as [i t rv|i|t rv| |i|t]; [exact HK| |exact HK| | |]; (apply K_queue; [exact HK|reflexivity|discriminate]).
  Qed.

  Theorem K_run acts : forall n, K n -> ok_run S C app init tbl n acts -> K (frun S C app init tbl n acts).
  Proof.
    induction acts as [|a r IH]; intros n HK Hok; cbn [frun fold_left]; [exact HK|].
    cbn [ok_run] in Hok. destruct Hok as [Ha Hr]. apply IH; [|exact Hr].
    apply K_step; [exact HK|]. destruct a; exact Ha.
  Qed.

  (* K at the end of the run: K_acked and K_log say it of the call, K_inv of the copy *)
  Theorem read_your_writes acts id r c :
    let n := frun S C app init tbl (node0 S C init) acts in
    ok_run S C app init tbl (node0 S C init) acts ->
    acked S C n id -> In (id, (r, c)) (wait n) ->
    f_store S (s_fol S C (n_sys S C n)) = fold_left app (firstn (lidx n) (s_log S C (n_sys S C n))) init /\
    (1 <= r <= lidx n)%nat /\ nth_error (firstn (lidx n) (s_log S C (n_sys S C n))) (r - 1) = Some c.
  Proof.
    intros n Hok Hack Hw. destruct (K_run acts _ K0 Hok) as [Ki Kit Kid Kan Ka Kl]. fold n in Ki, Ka, Kl.
    destruct Ki as [Hst Hle]. pose proof (Ka id r c Hack Hw) as Hr. destruct (Kl id r c Hw) as [H1 H2].
    split; [exact Hst|]. split; [lia|].
    rewrite <- (firstn_skipn (lidx n) (s_log S C (n_sys S C n))) in H2.
    rewrite nth_error_app1 in H2; [exact H2|]. rewrite firstn_length. unfold Forward.lidx in *. lia.
  Qed.
End Fwd.
