From Coq Require Import Lia.
From Verif Require Import Model.Cmd Proofs.RangeFacts.

Lemma varint_fuel_bound f x : 1 <= varint_size_fuel f x <= N.of_nat f + 1.
Proof.
  revert x; induction f as [|f IH]; intros x; cbn [varint_size_fuel]; [simpl; lia|].
  rewrite Nnat.Nat2N.inj_succ.
  destruct (x <? 128); [lia|]. specialize (IH (x / 128)).
  generalize dependent (varint_size_fuel f (x / 128)). intros v Hv. lia.
Qed.
Lemma varint_bound x : 1 <= varint_size x <= 11.
Proof. unfold varint_size. pose proof (varint_fuel_bound 10 x) as H. change (N.of_nat 10) with 10 in H. lia. Qed.

Lemma bytes_field_bound l : bytes_field_size l <= l + 12.
Proof. unfold bytes_field_size. destruct (l =? 0); [lia|]. pose proof (varint_bound l). lia. Qed.
Lemma msg_field_bound l : msg_field_size l <= l + 12.
Proof. unfold msg_field_size. pose proof (varint_bound l). lia. Qed.

Definition items_size (l : list N) : N := fold_right (fun x acc => msg_field_size x + acc) 0 l.
Definition count_part (c : N) : N := if c =? 0 then 0 else 1 + varint_size c.
Lemma range_resp_size_eq l c : range_resp_size l c = items_size l + count_part c.
Proof. reflexivity. Qed.
Lemma items_size_app l x : items_size (l ++ [x]) = items_size l + msg_field_size x.
Proof.
  induction l as [|y l IH]; simpl; [lia|].
  unfold items_size in *. simpl. rewrite IH. lia.
Qed.
Lemma count_part_bound c : count_part c <= 12.
Proof. unfold count_part. destruct (c =? 0); [lia|]. pose proof (varint_bound c). lia. Qed.

Section Bound.
  Variable P : Type.
  Variable ksz vsz : P -> N.
  Variable maxSize : N.
  Variable pairMax : N.      (* bound on len(key)+len(value) of a stored pair *)
  Notation rsz := (resp_size P ksz vsz).

  (* 48 = 24 (the two field headers of a KeyValue) + 12 (its framing as a list element) + 12 (the count field);
     each 12 is a tag byte and a varint of at most 11 bytes (fuel 10 + 1; 10 would do for 64 bits) *)
  Definition bnd : N := N.max maxSize pairMax + 48.

  Lemma item_size_bound m p : item_size P ksz vsz m p <= sf P ksz vsz m p + 24.
  Proof.
    unfold item_size, sf, kv_size. destruct m.
    - pose proof (bytes_field_bound (ksz p)). pose proof (bytes_field_bound (vsz p)). lia.
    - pose proof (bytes_field_bound (ksz p)). unfold bytes_field_size at 2. simpl. lia.
    - lia.
  Qed.

  Lemma rsz_push m cur cnt p cnt' :
    rsz m (chunk_push P m cur p) cnt' <= rsz m cur cnt + sf P ksz vsz m p + 48.
  Proof.
    pose proof (count_part_bound (Z.to_N cnt')).
    pose proof (msg_field_bound (item_size P ksz vsz m p)). pose proof (item_size_bound m p).
    unfold resp_size. rewrite !range_resp_size_eq.
    destruct m; cbn [chunk_push].
    1,2: rewrite map_app; cbn [map]; rewrite items_size_app.
    all: lia.
  Qed.

  Lemma rsz_count_only cur cnt : rsz MCount cur cnt <= items_size (map (fun _ => 0) cur) + 12.
  Proof.
    unfold resp_size. rewrite range_resp_size_eq. pose proof (count_part_bound (Z.to_N cnt)).
    replace (map (item_size P ksz vsz MCount) cur) with (map (fun _ : P => 0) cur) by reflexivity. lia.
  Qed.

  Theorem chunk_sizes m limit ps : (forall p, In p ps -> sf P ksz vsz m p <= pairMax) ->
    Forall (fun c => rsz m (ch_items c) (ch_count c) <= bnd) (iterate P ksz vsz maxSize m limit ps).
  Proof.
    intros H. apply (iterate_all P ksz vsz maxSize (fun cur cnt => rsz m cur cnt <= bnd)); unfold bnd.
    - (* no cut: size before + estimate < maxSize *)
      intros cur cnt p _ _ Hfit. apply N.leb_gt in Hfit. pose proof (rsz_push m cur cnt p (cnt + 1)). lia.
    - (* after a cut the response holds this one pair *)
      intros p Hp. pose proof (rsz_push m [] 0 p 1). specialize (H p Hp). change (rsz m [] 0) with 0 in *. lia.
    - change (rsz m [] 0) with 0. lia.
  Qed.
End Bound.
