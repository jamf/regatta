(* The command handlers are parametric in the store.  If [f] maps one store to another so that the five
   primitives commute with it (reads agree, writes land on the image), then every handler commutes with f
   and returns the same responses.  With f = repr this hides the key encoding and the bookkeeping keys;
   with f = the projection from a subset type it shows that an invariant of the primitives is kept. *)
From Verif Require Import Model.Cmd.

Section CmdInd.
  Variable P : command -> Prop.
  Hypothesis HPut : forall k v prev, P (CPut k v prev).
  Hypothesis HDelete : forall k e prev count, P (CDelete k e prev count).
  Hypothesis HDummy : P CDummy.
  Hypothesis HPutBatch : forall kvs, P (CPutBatch kvs).
  Hypothesis HDeleteBatch : forall ks, P (CDeleteBatch ks).
  Hypothesis HTxn : forall cs su fa, P (CTxn cs su fa).
  Hypothesis HSeq : forall cs, Forall P cs -> P (CSequence cs).
  Fixpoint command_ind' (c : command) : P c :=
    match c with
    | CPut k v prev => HPut k v prev
    | CDelete k e prev count => HDelete k e prev count
    | CDummy => HDummy
    | CPutBatch kvs => HPutBatch kvs
    | CDeleteBatch ks => HDeleteBatch ks
    | CTxn cs su fa => HTxn cs su fa
    | CSequence cs =>
        HSeq cs ((fix go (l : list command) : Forall P l :=
                    match l with
                    | [] => Forall_nil P
                    | x :: r => Forall_cons x (command_ind' x) (go r)
                    end) cs)
    end.
End CmdInd.

Section OneStore.
  Variable St : Type.
  Variable get : St -> bytes -> option bytes.
  Variable set : St -> bytes -> bytes -> St.
  Variable del : St -> bytes -> St.
  Variable delrange : St -> bytes -> bytes -> St.
  Variable scan : St -> bytes -> bytes -> list (bytes * bytes).
  Notation h := (handle St get set del delrange scan).
  Notation ops := (txn_ops St get set del delrange scan).

  Lemma handle_seq cs : forall s,
    h s (CSequence cs) = let '(s', rs) := seq_fold h s cs in (s', (fsm_ResultSuccess, rs)).
  Proof.
    induction cs as [|c cs IH]; intros s; [reflexivity|].
    cbn [handle seq_fold]. destruct (h s c) as [s1 [v r1]].
    specialize (IH s1). cbn [handle] in IH.
    (* ?f is the anonymous inner fix of Cmd.handle's CSequence branch, which IH equates with seq_fold *)
    match goal with |- context [let '(_, _) := ?f s1 cs in _] => destruct (f s1 cs) as [s2 rs2] end.
    destruct (seq_fold h s1 cs) as [s3 rs3]. injection IH as -> ->. reflexivity.
  Qed.

  (* handleTxnOps, one operation at a time: the new store and the responses it adds
     (none when the oneof of the operation is unset) *)
  Definition txn_step (s : St) (op : request_op) : St * list response_op :=
    match op with
    | ORange r => (s, [RRange (lookup St get scan s r)])
    | OPut p => let '(s1, r1) := handle_put St get set s p in (s1, [r1])
    | ODel d => let '(s1, r1) := handle_delete St get del delrange scan s d in (s1, [r1])
    | OUnset => (s, [])
    end.

  Lemma txn_ops_cons s op rest :
    ops s (op :: rest) = let '(s1, r1) := txn_step s op in let '(s', rs) := ops s1 rest in (s', r1 ++ rs).
  Proof.
    cbn [txn_ops]. destruct op as [r|p|d|]; cbn [txn_step].
    - now destruct (ops s rest).
    - destruct (handle_put St get set s p) as [s1 r1]. now destruct (ops s1 rest).
    - destruct (handle_delete St get del delrange scan s d) as [s1 r1]. now destruct (ops s1 rest).
    - now destruct (ops s rest).
  Qed.
End OneStore.

Section Hom.
  Variables A C : Type.
  Variable f : A -> C.
  Variable getA : A -> bytes -> option bytes.
  Variable setA : A -> bytes -> bytes -> A.
  Variable delA : A -> bytes -> A.
  Variable delrangeA : A -> bytes -> bytes -> A.
  Variable scanA : A -> bytes -> bytes -> list (bytes * bytes).
  Variable getC : C -> bytes -> option bytes.
  Variable setC : C -> bytes -> bytes -> C.
  Variable delC : C -> bytes -> C.
  Variable delrangeC : C -> bytes -> bytes -> C.
  Variable scanC : C -> bytes -> bytes -> list (bytes * bytes).
  Hypothesis Hget : forall u k, getC (f u) k = getA u k.
  Hypothesis Hset : forall u k v, setC (f u) k v = f (setA u k v).
  Hypothesis Hdel : forall u k, delC (f u) k = f (delA u k).
  Hypothesis Hdelrange : forall u lo hi, delrangeC (f u) lo hi = f (delrangeA u lo hi).
  Hypothesis Hscan : forall u lo hi, scanC (f u) lo hi = scanA u lo hi.

  Definition onfst {X} (x : A * X) : C * X := (f (fst x), snd x).

  Lemma single_lookup_hom u r : single_lookup C getC (f u) r = single_lookup A getA u r.
  Proof. unfold single_lookup. now rewrite Hget. Qed.

  Lemma lookup_hom u r : lookup C getC scanC (f u) r = lookup A getA scanA u r.
  Proof.
    unfold lookup, range_lookup, iterate_req. destruct (rq_end r); [now rewrite Hscan|apply single_lookup_hom].
  Qed.

  Lemma iterator_lookup_hom u r : iterator_lookup C getC scanC (f u) r = iterator_lookup A getA scanA u r.
  Proof.
    unfold iterator_lookup, iterate_req. destruct (rq_end r); [now rewrite Hscan|now rewrite single_lookup_hom].
  Qed.

  Lemma handle_put_hom u p : handle_put C getC setC (f u) p = onfst (handle_put A getA setA u p).
  Proof. unfold handle_put, onfst; cbn [fst snd]. now rewrite Hset, single_lookup_hom. Qed.

  Lemma handle_delete_hom u d :
    handle_delete C getC delC delrangeC scanC (f u) d = onfst (handle_delete A getA delA delrangeA scanA u d).
  Proof.
    unfold handle_delete, onfst. rewrite lookup_hom.
    destruct (dl_end d); cbn [fst snd]; now rewrite ?Hdel, ?Hdelrange.
  Qed.

  Lemma compare_one_hom u c : compare_one C getC scanC (f u) c = compare_one A getA scanA u c.
  Proof. unfold compare_one. destruct (cm_end c); now rewrite ?Hscan, ?Hget. Qed.

  Lemma txn_compare_hom u cs : txn_compare C getC scanC (f u) cs = txn_compare A getA scanA u cs.
  Proof.
    unfold txn_compare. induction cs as [|c cs IH]; cbn [forallb]; [reflexivity|]. now rewrite compare_one_hom, IH.
  Qed.

  Notation opsA := (txn_ops A getA setA delA delrangeA scanA).
  Notation opsC := (txn_ops C getC setC delC delrangeC scanC).

  Lemma txn_step_hom u op :
    txn_step C getC setC delC delrangeC scanC (f u) op = onfst (txn_step A getA setA delA delrangeA scanA u op).
  Proof.
    destruct op as [r|p|d|]; cbn [txn_step].
    - now rewrite lookup_hom.
    - rewrite handle_put_hom. now destruct (handle_put A getA setA u p).
    - rewrite handle_delete_hom. now destruct (handle_delete A getA delA delrangeA scanA u d).
    - reflexivity.
  Qed.

  Lemma txn_ops_hom ops : forall u, opsC (f u) ops = onfst (opsA u ops).
  Proof.
    induction ops as [|op rest IH]; intros u; [reflexivity|].
    rewrite !txn_ops_cons, txn_step_hom.
    destruct (txn_step A getA setA delA delrangeA scanA u op) as [u1 r1]. cbn [onfst fst snd].
    rewrite IH. now destruct (opsA u1 rest).
  Qed.

  Lemma handle_txn_hom u cs su fa :
    handle_txn C getC setC delC delrangeC scanC (f u) cs su fa = onfst (handle_txn A getA setA delA delrangeA scanA u cs su fa).
  Proof. unfold handle_txn. rewrite txn_compare_hom, txn_ops_hom. now destruct (opsA u _). Qed.

  Lemma put_batch_hom kvs : forall u, put_batch C getC setC (f u) kvs = onfst (put_batch A getA setA u kvs).
  Proof.
    induction kvs as [|[k v] rest IH]; intros u; cbn [put_batch]; [reflexivity|].
    rewrite handle_put_hom. destruct (handle_put A getA setA u _) as [u1 r1]; cbn [onfst fst snd].
    rewrite IH. now destruct (put_batch A getA setA u1 rest).
  Qed.

  Lemma delete_batch_hom ks : forall u,
    delete_batch C getC delC delrangeC scanC (f u) ks = onfst (delete_batch A getA delA delrangeA scanA u ks).
  Proof.
    induction ks as [|k rest IH]; intros u; cbn [delete_batch]; [reflexivity|].
    rewrite handle_delete_hom. destruct (handle_delete A getA delA delrangeA scanA u _) as [u1 r1]; cbn [onfst fst snd].
    rewrite IH. now destruct (delete_batch A getA delA delrangeA scanA u1 rest).
  Qed.

  Notation hA := (handle A getA setA delA delrangeA scanA).
  Notation hC := (handle C getC setC delC delrangeC scanC).

  Lemma seq_fold_hom cs : Forall (fun c => forall u, hC (f u) c = onfst (hA u c)) cs ->
    forall u, seq_fold hC (f u) cs = onfst (seq_fold hA u cs).
  Proof.
    induction 1 as [|c cs Hc _ IH]; intros u; cbn [seq_fold]; [reflexivity|].
    rewrite Hc. destruct (hA u c) as [u1 [v r1]]. cbn [onfst fst snd].
    rewrite IH. now destruct (seq_fold hA u1 cs).
  Qed.

  Theorem handle_hom c : forall u, hC (f u) c = onfst (hA u c).
  Proof.
    induction c as [k v prev|k e prev count| |kvs|ks|cs su fa|cs HF] using command_ind'; intros u.
    all: rewrite ?handle_seq; cbn [handle].
    - (* CPut *) rewrite handle_put_hom. now destruct (handle_put A getA setA u _).
    - (* CDelete *) rewrite handle_delete_hom. now destruct (handle_delete A getA delA delrangeA scanA u _).
    - (* CDummy *) reflexivity.
    - (* CPutBatch *) rewrite put_batch_hom. now destruct (put_batch A getA setA u kvs).
    - (* CDeleteBatch *) rewrite delete_batch_hom. now destruct (delete_batch A getA delA delrangeA scanA u ks).
    - (* CTxn *) rewrite handle_txn_hom. now destruct (handle_txn A getA setA delA delrangeA scanA u cs su fa) as [u' [ok rs]].
    - (* CSequence *) rewrite (seq_fold_hom cs HF). now destruct (seq_fold hA u cs).
  Qed.

  Lemma lookup_txn_hom u cs su fa : lookup_txn C getC scanC (f u) cs su fa = lookup_txn A getA scanA u cs su fa.
  Proof.
    unfold lookup_txn. rewrite txn_compare_hom. f_equal.
    apply map_ext. intros op. destruct op; now rewrite lookup_hom.
  Qed.
End Hom.
Arguments handle_hom {A C} f {getA setA delA delrangeA scanA getC setC delC delrangeC scanC}.
Arguments lookup_hom {A C} f {getA scanA getC scanC}.
Arguments iterator_lookup_hom {A C} f {getA scanA getC scanC}.
Arguments lookup_txn_hom {A C} f {getA scanA getC scanC}.

(* an invariant of the three writes is an invariant of every command: the store restricted to the states
   that satisfy it is a store again, and the inclusion is a homomorphism *)
Section Inv.
  Variable St : Type.
  Variable get : St -> bytes -> option bytes.
  Variable set : St -> bytes -> bytes -> St.
  Variable del : St -> bytes -> St.
  Variable delrange : St -> bytes -> bytes -> St.
  Variable scan : St -> bytes -> bytes -> list (bytes * bytes).
  Variable Inv : St -> Prop.
  Hypothesis Iset : forall s k v, Inv s -> Inv (set s k v).
  Hypothesis Idel : forall s k, Inv s -> Inv (del s k).
  Hypothesis Idelrange : forall s lo hi, Inv s -> Inv (delrange s lo hi).

  Theorem handle_inv c s : Inv s -> Inv (fst (handle St get set del delrange scan s c)).
  Proof.
    intros H.
    pose proof (handle_hom (@proj1_sig St Inv)
                  (getA := fun u => get (proj1_sig u))
                  (setA := fun u k v => exist _ _ (Iset _ k v (proj2_sig u)))
                  (delA := fun u k => exist _ _ (Idel _ k (proj2_sig u)))
                  (delrangeA := fun u lo hi => exist _ _ (Idelrange _ lo hi (proj2_sig u)))
                  (scanA := fun u => scan (proj1_sig u))
                  (fun _ _ => eq_refl) (fun _ _ _ => eq_refl) (fun _ _ => eq_refl) (fun _ _ _ => eq_refl) (fun _ _ _ => eq_refl)
                  c (exist _ s H)) as E.
    cbn [proj1_sig] in E. rewrite E. exact (proj2_sig (fst _)).
  Qed.
End Inv.
