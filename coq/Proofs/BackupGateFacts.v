From Verif Require Import Model.BackupGate.

Section Gate.
  Variable hash : bytes -> N.

  Theorem uploads_match ts n f : In (n, f) (fst (restore_client hash ts)) ->
    exists t, In t ts /\ b_name t = n /\ b_file t = f /\ hash f = b_sum t.
  Proof.
    induction ts as [|t r IH]; cbn [restore_client]; [intros []|].
    destruct (matches hash t) eqn:Em; [|intros []].
    destruct (restore_client hash r) as [u ok]. cbn [fst] in *. intros [[= <- <-]|H].
    - exists t. split; [now left|]. repeat split. unfold matches in Em. now apply N.eqb_eq in Em.
    - destruct (IH H) as (t' & Hin & H1 & H2 & H3). exists t'. split; [now right|]. auto.
  Qed.

  Theorem success_iff_all_match ts : snd (restore_client hash ts) = true <-> forallb (matches hash) ts = true.
  Proof.
    induction ts as [|t r IH]; cbn [restore_client forallb]; [tauto|].
    destruct (matches hash t); cbn [andb]; [|split; discriminate].
    destruct (restore_client hash r) as [u ok]. exact IH.
  Qed.
  Theorem success_uploads_all ts : snd (restore_client hash ts) = true ->
    fst (restore_client hash ts) = map (fun t => (b_name t, b_file t)) ts.
  Proof.
    induction ts as [|t r IH]; cbn [restore_client map]; [reflexivity|].
    destruct (matches hash t); [|discriminate]. destruct (restore_client hash r) as [u ok]. cbn [fst snd] in *.
    intros H. now rewrite (IH H).
  Qed.

  Theorem uploads_are_matching_prefix ts :
    map fst (fst (restore_client hash ts)) =
    map b_name (firstn (length (fst (restore_client hash ts))) ts) /\
    (snd (restore_client hash ts) = false ->
     exists t, nth_error ts (length (fst (restore_client hash ts))) = Some t /\ matches hash t = false).
  Proof.
    induction ts as [|t r IH]; cbn [restore_client]; [split; [reflexivity|discriminate]|].
    destruct (matches hash t) eqn:Em.
    - destruct (restore_client hash r) as [u ok]. cbn [fst snd length firstn map nth_error] in *. destruct IH as [I1 I2].
      split; [now f_equal|exact I2].
    - cbn [fst snd length firstn map nth_error]. split; [reflexivity|]. intros _. exists t. auto.
  Qed.

  Lemma map_const_false {A} (l : list A) : map (fun _ => false) l = repeat false (length l).
  Proof. induction l; cbn; congruence. Qed.

  (* the observable used by the correspondence run: per manifest position, was the table replaced *)
  Theorem flags_are_prefix ts :
    uploaded_flags (map (matches hash) ts) =
    repeat true (length (fst (restore_client hash ts))) ++ repeat false (length ts - length (fst (restore_client hash ts))).
  Proof.
    induction ts as [|t r IH]; cbn [restore_client map uploaded_flags]; [reflexivity|].
    destruct (matches hash t).
    - destruct (restore_client hash r) as [u ok]. cbn [fst length repeat app] in *. rewrite IH. reflexivity.
    - cbn [fst length repeat app Nat.sub]. rewrite map_const_false, map_length. reflexivity.
  Qed.
End Gate.
