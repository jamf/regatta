From Coq Require Import Lia.
From Verif Require Import Model.LogReader Proofs.BytesFacts.

Lemma firstn_is_prefix {A} n (l : list A) : exists r, l = firstn n l ++ r.
Proof. eexists. symmetry. apply firstn_skipn. Qed.

Lemma fix_size_prefix kf es mx : exists r, es = fix_size_gen kf es mx ++ r.
Proof. apply firstn_is_prefix. Qed.

Lemma fix_size_nonempty es mx : es <> [] -> fix_size es mx <> [].
Proof.
  unfold fix_size, fix_size_gen. destruct es as [|e r]; [congruence|]. intros _.
  destruct (Nat.max 1 (fix_size_go (e :: r) 0 mx)) eqn:E; [lia|]. simpl. discriminate.
Qed.

Fixpoint consec (m : N) (l : list lentry) : Prop :=
  match l with [] => True | e :: r => eidx e = m + 1 /\ consec (m + 1) r end.
Definition wf_log (l : rlog) : Prop := consec (marker l) (lents l).

Definition inr_b (lo hi : N) (e : lentry) : bool := (lo <=? eidx e) && (eidx e <? hi).

Lemma consec_skipn L : forall m n, consec m L -> consec (m + N.of_nat n) (skipn n L).
Proof.
  induction L as [|e r IH]; intros m [|n] H; try exact I; [now rewrite N.add_0_r|].
  cbn [skipn]. replace (m + N.of_nat (S n)) with (m + 1 + N.of_nat n) by lia. apply IH, H.
Qed.
Lemma consec_firstn L : forall m n, consec m L -> consec m (firstn n L).
Proof. induction L as [|e r IH]; intros m [|n] H; try exact I. split; [apply H|apply IH, H]. Qed.
Lemma consec_last L : forall m d, consec m L -> L <> [] -> eidx (last L d) = m + N.of_nat (length L).
Proof.
  induction L as [|e r IH]; intros m d Hc Hne; [congruence|]. destruct Hc as [He Hc].
  destruct r as [|e2 r]; [cbn; lia|]. change (last (e :: e2 :: r) d) with (last (e2 :: r) d).
  rewrite (IH (m + 1)) by (assumption || discriminate). cbn [length]. lia.
Qed.

(* positions from the head of a consecutive list: for the tail, one less *)
Lemma off_tail x m : N.to_nat (x - (m + 1 + 1)) = pred (N.to_nat (x - (m + 1))).
Proof. now rewrite N.sub_add_distr, N2Nat.inj_sub, Nat.sub_1_r. Qed.

(* the entries with indices in [lo,hi), by position: with consecutive indices the filter is a slice *)
Lemma consec_slice L : forall m lo hi, consec m L ->
  filter (inr_b lo hi) L =
  firstn (N.to_nat (hi - (m + 1)) - N.to_nat (lo - (m + 1))) (skipn (N.to_nat (lo - (m + 1))) L).
Proof.
  induction L as [|e r IH]; intros m lo hi Hc; [now rewrite skipn_nil, firstn_nil|].
  destruct Hc as [He Hc]. cbn [filter]. unfold inr_b at 1. rewrite He, (IH _ _ _ Hc), !off_tail.
  destruct (N.leb_spec lo (m + 1)) as [H|H]; cbn [andb].
  - rewrite (proj2 (N.sub_0_le _ _) H). cbn [N.to_nat pred skipn]. rewrite !Nat.sub_0_r.
    destruct (N.ltb_spec (m + 1) hi) as [H'|H'].
    + destruct (N.to_nat (hi - (m + 1))) eqn:E; [lia|reflexivity].
    + now rewrite (proj2 (N.sub_0_le _ _) H').
  - destruct (N.to_nat (lo - (m + 1))) eqn:E; [lia|]. cbn [pred skipn]. now destruct (N.to_nat (hi - (m + 1))).
Qed.

Lemma consec_filter l m lo hi : consec m l -> m + 1 <= lo -> consec (lo - 1) (filter (inr_b lo hi) l).
Proof.
  intros Hc H. rewrite (consec_slice _ _ _ _ Hc). apply consec_firstn.
  replace (lo - 1) with (m + N.of_nat (N.to_nat (lo - (m + 1)))) by lia. apply consec_skipn, Hc.
Qed.

Section Ranges.
  Variable l : rlog.
  Hypothesis Hwf : wf_log l.
  Notation R := (range_entries l).

  Lemma range_slice lo hi : marker l < lo ->
    R lo hi = firstn (N.to_nat (hi - lo)) (skipn (N.to_nat (lo - (marker l + 1))) (lents l)).
  Proof.
    intros H. unfold range_entries. fold (inr_b lo hi). rewrite (consec_slice _ _ _ _ Hwf).
    now rewrite <- N2Nat.inj_sub, <- N.sub_add_distr, N.add_comm, N.sub_add by lia.
  Qed.

  Lemma range_nil lo hi : marker l < lo -> hi <= lo -> R lo hi = [].
  Proof. intros H H'. now rewrite range_slice, (proj2 (N.sub_0_le hi lo) H') by assumption. Qed.

  Lemma range_length lo hi : marker l < lo -> hi <= llast l + 1 -> N.of_nat (length (R lo hi)) = hi - lo.
  Proof.
    intros H H'. rewrite range_slice, firstn_length_le, N2Nat.id by (assumption || (rewrite skipn_length; unfold llast in H'; lia)).
    reflexivity.
  Qed.

  Lemma range_firstn n lo hi : marker l < lo -> firstn n (R lo hi) = R lo (N.min (lo + N.of_nat n) hi).
  Proof.
    intros H. rewrite !range_slice, firstn_firstn by assumption. f_equal.
    now rewrite <- N.sub_min_distr_r, (N.add_comm lo), N.add_sub, N2Nat.inj_min, Nat2N.id.
  Qed.

  Lemma range_skipn n lo hi : marker l < lo -> skipn n (R lo hi) = R (lo + N.of_nat n) hi.
  Proof.
    intros H. rewrite !range_slice, skipn_firstn_comm, skipn_skipn by lia. f_equal; [|f_equal].
    - now rewrite N.sub_add_distr, (N2Nat.inj_sub (hi - lo)), Nat2N.id.
    - now rewrite N.add_sub_swap, N2Nat.inj_add, Nat2N.id by lia.
  Qed.

  Lemma range_app lo mid hi : marker l < lo -> lo <= mid <= hi -> R lo mid ++ R mid hi = R lo hi.
  Proof.
    intros H H'. rewrite <- (firstn_skipn (N.to_nat (mid - lo)) (R lo hi)), range_firstn, range_skipn by assumption.
    now rewrite N2Nat.id, (N.add_comm lo), (N.sub_add lo mid), (N.min_l mid hi) by apply H'.
  Qed.

  Lemma range_filter a z lo hi : filter (inr_b lo hi) (R a z) = R (N.max lo a) (N.min hi z).
  Proof.
    unfold range_entries. rewrite filter_filter. apply filter_ext. intros x. apply Bool.eq_iff_eq_true. unfold inr_b.
    rewrite !andb_true_iff, !N.leb_le, !N.ltb_lt, N.max_lub_iff, N.min_glb_lt_iff. tauto.
  Qed.

  Lemma range_consecutive lo hi : marker l < lo -> consec (lo - 1) (R lo hi).
  Proof. intros H. apply (consec_filter _ _ _ _ Hwf). lia. Qed.

  Lemma range_hd lo hi e t : marker l < lo -> R lo hi = e :: t -> eidx e = lo.
  Proof. intros H E. pose proof (range_consecutive lo hi H) as Hc. rewrite E in Hc. destruct Hc as [-> _]. lia. Qed.

  Lemma range_cons lo hi : marker l < lo -> lo < hi <= llast l + 1 -> exists e t, R lo hi = e :: t.
  Proof.
    intros H1 H2. pose proof (range_length lo hi H1 (proj2 H2)) as Hn.
    destruct (R lo hi) as [|e t]; [cbn in Hn; lia|]. now exists e, t.
  Qed.

  Lemma range_last lo hi d : marker l < lo -> lo < hi <= llast l + 1 -> eidx (last (R lo hi) d) = hi - 1.
  Proof.
    intros H1 H2. destruct (range_cons lo hi H1 H2) as (e & t & E).
    assert (Hne : R lo hi <> []) by (rewrite E; discriminate).
    rewrite (consec_last _ _ d (range_consecutive lo hi H1) Hne), range_length by (assumption || apply H2). lia.
  Qed.
End Ranges.
Arguments range_hd l Hwf {lo hi e t}.

Section Stream.
  Variable l : rlog.
  Variable applied : N.
  Hypothesis Hwf : wf_log l.
  Hypothesis Happ : applied <= llast l.
  Let L := applied + 1.

  (* what the property demands of one answer for the range [F, applied+1) *)
  Definition exact_answer (F : N) (a : list lentry + qerr) : Prop :=
    if F =? L then a = inl []
    else if F <=? marker l then a = inr ErrLogAhead
    else exists n, (1 <= n)%nat /\ a = inl (firstn n (range_entries l F L)).

  Variable q : cache -> lrange -> (list lentry + qerr) * cache.
  Variable Inv : cache -> Prop.
  Hypothesis q_exact : forall c F, Inv c -> 1 <= F -> marker l < F <= L \/ F <= marker l ->
    exact_answer F (fst (q c {| rfirst := F; rlast := L |})) /\ Inv (snd (q c {| rfirst := F; rlast := L |})).

  Fixpoint cmds_of (ms : list rmsg) : list (rcmd * N) :=
    match ms with
    | MCommands _ cs :: r => cs ++ cmds_of r
    | _ :: r => cmds_of r
    | [] => []
    end.

  Theorem stream_exact : forall fuel c F, Inv c -> marker l < F <= L ->
    (length (range_entries l F L) < fuel)%nat ->
    let ms := fst (replicate_loop fuel q c applied {| rfirst := F; rlast := L |}) in
    cmds_of ms = map entry_to_command (range_entries l F L) /\
    exists front, ms = front ++ [MUpToDate applied] /\ Forall (fun m => exists cs, m = MCommands applied cs /\ cs <> []) front.
  Proof.
    induction fuel as [|fuel IH]; intros c F HI HF Hlen; [lia|].
    cbn [replicate_loop].
    destruct (q_exact c F HI ltac:(lia) (or_introl HF)) as [Hex HI']. destruct HF as [HmF HFL].
    destruct (q c {| rfirst := F; rlast := L |}) as [a c']. cbn [fst snd] in *.
    unfold exact_answer in Hex.
    destruct (N.eqb_spec F L) as [->|HneL].
    - subst a. cbn [fst]. rewrite (range_nil l Hwf L L HmF (N.le_refl L)). split; [reflexivity|].
      exists []. split; [reflexivity|constructor].
    - rewrite (proj2 (N.leb_gt F (marker l)) HmF) in Hex.
      destruct Hex as (n & Hn & ->). rewrite (range_firstn l Hwf n F L HmF).
      (* the batch is the range [F,F'), not empty; the next request starts at F'; [F,F') ++ [F',L) = [F,L), so what
         is left is shorter *)
      set (F' := N.min (F + N.of_nat n) L). assert (HF' : F < F' <= llast l + 1 /\ F <= F' <= L) by lia.
      clearbody F'. destruct HF' as [HF' HFF'].
      destruct (range_cons l Hwf F F' HmF HF') as (e0 & er & E). rewrite E. cbv beta iota. rewrite <- E.
      rewrite (range_last l Hwf F F' e0 HmF HF'). cbn [rlast]. replace (N.min (F' - 1 + 1) L) with F' by lia.
      pose proof (range_app l Hwf F F' L HmF HFF') as Eapp. rewrite <- Eapp, app_length, E in Hlen. cbn [length] in Hlen.
      specialize (IH c' F' HI' ltac:(lia) ltac:(lia)). cbv zeta in IH.
      destruct (replicate_loop fuel q c' applied {| rfirst := F'; rlast := L |}) as [ms c'']. cbn [fst] in *.
      destruct IH as [IH1 (front & IH2 & IH3)]. split.
      + cbn [cmds_of]. now rewrite IH1, <- map_app, Eapp.
      + exists (MCommands applied (map entry_to_command (range_entries l F F')) :: front). split; [now rewrite IH2|].
        constructor; [|exact IH3]. eexists. split; [reflexivity|]. rewrite E. discriminate.
  Qed.
End Stream.

Theorem simple_exact cut l applied mx F : applied <= llast l -> F <= applied + 1 ->
  exact_answer l applied F (simple_query cut l {| rfirst := F; rlast := applied + 1 |} mx).
Proof.
  intros Ha HF. unfold exact_answer, simple_query; cbn [rfirst rlast].
  destruct (N.eqb_spec F (applied + 1)) as [E|E]; [reflexivity|].
  unfold read_log; cbn [rfirst rlast].
  replace (llast l + 1 =? F) with false by (symmetry; apply N.eqb_neq; lia).
  replace (llast l <? F) with false by (symmetry; apply N.ltb_ge; lia).
  destruct (N.leb_spec F (marker l)) as [H|H].
  - replace (F <? marker l + 1) with true by (symmetry; apply N.ltb_lt; lia). reflexivity.
  - replace (F <? marker l + 1) with false by (symmetry; apply N.ltb_ge; lia).
    exists (Nat.max 1 (cut F (applied + 1) mx)). split; [lia|reflexivity].
Qed.

Lemma replicate_leader_behind fuel (q : cache -> lrange -> (list lentry + qerr) * cache) c applied from : applied + 1 < from ->
  fst (replicate fuel q c applied from) = [MLeaderBehind].
Proof. intros H. unfold replicate. replace (applied + 1 <? from) with true by (symmetry; apply N.ltb_lt; lia). reflexivity. Qed.

Lemma replicate_use_snapshot fuel (q : cache -> lrange -> (list lentry + qerr) * cache) (Inv : cache -> Prop) l c applied from :
  (forall c F, Inv c -> 1 <= F -> marker l < F <= applied + 1 \/ F <= marker l ->
     exact_answer l applied F (fst (q c {| rfirst := F; rlast := applied + 1 |})) /\ Inv (snd (q c {| rfirst := F; rlast := applied + 1 |}))) ->
  Inv c -> 1 <= from -> from <= marker l -> marker l <= applied ->
  fst (replicate (S fuel) q c applied from) = [MUseSnapshot].
Proof.
  intros Hq HI H1 Hf Hm. unfold replicate. replace (applied + 1 <? from) with false by (symmetry; apply N.ltb_ge; lia).
  cbn [replicate_loop]. destruct (Hq c from HI H1 (or_intror Hf)) as [Hex _].
  destruct (q c _) as [a c']. cbn [fst] in *. unfold exact_answer in Hex.
  replace (from =? applied + 1) with false in Hex by (symmetry; apply N.eqb_neq; lia).
  replace (from <=? marker l) with true in Hex by (symmetry; apply N.leb_le; lia). now subst a.
Qed.
