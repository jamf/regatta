(* The current/current.updating protocol never exposes a state a reopen cannot recover from, at any primitive-step
   boundary, for any operation history, any survival oracle and any number of crashes. *)
From Verif Require Import Model.DirProto.

(* a "current" names, through the synced content of its inode, a listed directory that holds the acknowledged batches
   durably; without a "current" nothing was acknowledged (the first publish comes before the first Sync returns) *)
Definition points (l : list nat) (s : st) (o : option nat) : Prop :=
  match o with
  | None => ack s = 0
  | Some i => exists c, i_synced (inodes s i) = Some c /\ In c l /\ ack s <= dur (dbs s c) /\ i < ninodes s
  end.

(* I_vd: a crash resets data to synced and a reopen reads data, so for "current" the two agree.  I_vu, I_du:
   "current.updating" is never the inode a "current" names, so writing it cannot change what "current" says. *)
Record Inv (s : st) : Prop := {
  I_v : points (v_dbs s) s (v_cur s);
  I_vd : forall i, v_cur s = Some i -> i_data (inodes s i) = i_synced (inodes s i);
  I_d : points (d_dbs s) s (d_cur s);
  I_db : forall x, dur (dbs s x) <= mem (dbs s x) /\ mem (dbs s x) <= top s;
  I_vu : forall j, v_upd s = Some j -> v_cur s <> Some j /\ d_cur s <> Some j;
  I_du : forall j, d_upd s = Some j -> d_cur s <> Some j;
  I_nv : forall d, In d (v_dbs s) -> d < next s;
  I_nd : forall d, In d (d_dbs s) -> d < next s
}.

Lemma Inv0 : Inv st0.
Proof.
  constructor; cbn.
  - (* I_v *) reflexivity.
  - (* I_vd *) discriminate.
  - (* I_d *) reflexivity.
  - (* I_db *) intros _. lia.
  - (* I_vu *) discriminate.
  - (* I_du *) discriminate.
  - (* I_nv *) intros d [].
  - (* I_nd *) intros d [].
Qed.

Lemma updf_same {A} (f : nat -> A) d v : updf f d v d = v.
Proof. unfold updf. now rewrite Nat.eqb_refl. Qed.
Lemma updf_other {A} (f : nat -> A) d v x : x <> d -> updf f d v x = f x.
Proof. unfold updf. intros H. destruct (Nat.eqb_spec x d); [contradiction|reflexivity]. Qed.

Lemma mem_nat_In d l : mem_nat d l = true <-> In d l.
Proof.
  unfold mem_nat. rewrite existsb_exists. split.
  - intros [x [Hx He]]. apply Nat.eqb_eq in He. now subst.
  - intros H. exists d. split; [assumption|apply Nat.eqb_refl].
Qed.
Lemma remove_nat_In x d l : In x (remove_nat d l) <-> In x l /\ x <> d.
Proof.
  unfold remove_nat. rewrite filter_In. split; intros [H1 H2]; split; try assumption.
  - intros ->. rewrite Nat.eqb_refl in H2. discriminate.
  - destruct (Nat.eqb_spec x d); [contradiction|reflexivity].
Qed.

Local Arguments mem_nat : simpl never.
Local Arguments remove_nat : simpl never.

Lemma mkdb_listed s d : In d (v_dbs (exec1 s (PMkDb d))).
Proof. cbn. destruct (mem_nat d (v_dbs s)) eqn:E; [now apply mem_nat_In|now left]. Qed.

(* PRename makes "current" name the inode of "current.updating": it asks of that inode what I_v and I_vd say of "current" *)
Definition pre (p : prim) (s : st) : Prop :=
  match p with
  | PMkDb d => d < next s
  | PRename => exists j d, v_upd s = Some j /\ j < ninodes s /\ i_synced (inodes s j) = Some d /\
                           i_data (inodes s j) = Some d /\ In d (v_dbs s) /\ ack s <= dur (dbs s d)
  | PRemoveDb x => forall i c, v_cur s = Some i -> i_synced (inodes s i) = Some c -> x <> c
  | PDbLoad d _ => forall i c, v_cur s = Some i \/ d_cur s = Some i -> i_synced (inodes s i) = Some c -> c <> d
  | PAck n => v_cur s <> None /\ d_cur s <> None /\
              forall i c, v_cur s = Some i \/ d_cur s = Some i -> i_synced (inodes s i) = Some c -> n <= dur (dbs s c)
  | PFail => False
  | _ => True
  end.

(* what either "current" names: an inode in use whose synced content is a directory below the name counter that
   holds the acknowledged batches durably *)
Lemma cur_target s i : Inv s -> v_cur s = Some i \/ d_cur s = Some i ->
  i < ninodes s /\ exists c, i_synced (inodes s i) = Some c /\ c < next s /\ ack s <= dur (dbs s c).
Proof.
  intros HI [E|E].
  - pose proof (I_v s HI) as P. rewrite E in P. destruct P as (c & Hs & Hin & Ha & Hn).
    split; [exact Hn|]. exists c. apply (I_nv s HI) in Hin. auto.
  - pose proof (I_d s HI) as P. rewrite E in P. destruct P as (c & Hs & Hin & Ha & Hn).
    split; [exact Hn|]. exists c. apply (I_nd s HI) in Hin. auto.
Qed.

(* [points] moves to another listing and another state as long as the inode it goes through keeps its synced content,
   the directory it reaches stays listed and loses no durable batch *)
Lemma points_to l l' s s' o : points l s o -> ack s' = ack s -> ninodes s <= ninodes s' ->
  (forall i c, o = Some i -> i < ninodes s -> i_synced (inodes s i) = Some c -> In c l ->
     i_synced (inodes s' i) = Some c /\ In c l' /\ dur (dbs s c) <= dur (dbs s' c)) ->
  points l' s' o.
Proof.
  destruct o as [i|]; cbn; [|congruence].
  intros (c & Hs & Hi & Ha & Hn) Ea Hni H.
  destruct (H i c eq_refl Hn Hs Hi) as (H1 & H2 & H3).
  exists c. rewrite Ea. repeat split; try assumption; lia.
Qed.
Arguments points_to {l l' s s' o}.

Lemma inv_vdbs s l : Inv s -> (forall x, In x l -> x < next s) ->
  (forall i c, v_cur s = Some i -> i_synced (inodes s i) = Some c -> In c (v_dbs s) -> In c l) -> Inv (set_vdbs s l).
Proof.
  intros [Iv Ivd Id Idb Ivu Idu Inv_ Ind] Hlt Hin. constructor; cbn; try assumption.
  apply (points_to Iv); [reflexivity|apply le_n|].
  intros i c E _ Hs Hc. split; [exact Hs|]. split; [|apply le_n]. exact (Hin i c E Hs Hc).
Qed.

Lemma inv_inodes s f n u : Inv s -> ninodes s <= n ->
  (forall i, v_cur s = Some i \/ d_cur s = Some i -> f i = inodes s i /\ u <> Some i) -> Inv (set_newino s f n u).
Proof.
  intros [Iv Ivd Id Idb Ivu Idu Inv_ Ind] Hn Hf. constructor; cbn; try assumption.
  - apply (points_to Iv); [reflexivity|assumption|].
    intros i c E _ Hs Hc. cbn. destruct (Hf i) as [-> _]; auto.
  - intros i E. destruct (Hf i) as [-> _]; auto.
  - apply (points_to Id); [reflexivity|assumption|].
    intros i c E _ Hs Hc. cbn. destruct (Hf i) as [-> _]; auto.
  - intros j E. split; intros E'; apply (Hf j); auto.
Qed.

(* an instance of inv_inodes: [set_ino s f] is [set_newino s f (ninodes s) (v_upd s)] *)
Lemma inv_upd s (x : nat -> inode) :
  Inv s -> Inv (match v_upd s with Some j => set_ino s (updf (inodes s) j (x j)) | None => s end).
Proof.
  intros HI. destruct (v_upd s) as [j|] eqn:Ej; [|exact HI].
  destruct (I_vu s HI j Ej) as [Hv Hd].
  apply (inv_inodes s _ (ninodes s) (v_upd s)); [assumption|apply le_n|].
  intros i E. split.
  - apply updf_other. destruct E; congruence.
  - rewrite Ej. destruct E; congruence.
Qed.

Lemma inv_dbs s d b t : Inv s -> dur b <= mem b <= t -> top s <= t ->
  (forall i, v_cur s = Some i \/ d_cur s = Some i -> i_synced (inodes s i) = Some d -> dur (dbs s d) <= dur b) ->
  Inv (set_dbs s (updf (dbs s) d b) t).
Proof.
  intros [Iv Ivd Id Idb Ivu Idu Inv_ Ind] Hb Ht Hd.
  assert (Hdur : forall i c, v_cur s = Some i \/ d_cur s = Some i -> i_synced (inodes s i) = Some c ->
                             dur (dbs s c) <= dur (updf (dbs s) d b c)).
  { intros i c E Hs. unfold updf. destruct (Nat.eqb_spec c d) as [->|]; [now apply (Hd i)|apply le_n]. }
  constructor; cbn; try assumption.
  - apply (points_to Iv); [reflexivity|apply le_n|].
    intros i c E _ Hs Hc. repeat split; try assumption. apply (Hdur i); auto.
  - apply (points_to Id); [reflexivity|apply le_n|].
    intros i c E _ Hs Hc. repeat split; try assumption. apply (Hdur i); auto.
  - intros x. pose proof (Idb x). unfold updf. destruct (Nat.eqb_spec x d); lia.
Qed.

Lemma exec1_inv s p : Inv s -> pre p s -> Inv (exec1 s p).
Proof.
  intros HI Hp. pose proof HI as [Iv Ivd Id Idb Ivu Idu Inv_ Ind]. destruct p; cbn [exec1 pre] in *.
  - (* PMkDb *)
    apply inv_vdbs; [assumption| |]; destruct (mem_nat d (v_dbs s)); auto.
    + intros x [<-|Hx]; auto.
    + intros; now right.
  - (* PSyncDir: the durable names become the volatile ones *)
    constructor; cbn; try assumption; intros j Hj; destruct (Ivu j Hj); auto.
  - (* PCreateUpd *)
    apply inv_inodes; [assumption|lia|].
    intros i E. apply (cur_target s i HI) in E as [E _].
    split; [apply updf_other; lia|intros [= <-]; lia].
  - (* PWriteUpd *)
    exact (inv_upd s (fun j => {| i_data := Some d; i_synced := i_synced (inodes s j) |}) HI).
  - (* PSyncUpd *)
    exact (inv_upd s (fun j => {| i_data := i_data (inodes s j); i_synced := i_data (inodes s j) |}) HI).
  - (* PRename: "current" now names what the precondition says about "current.updating" *)
    destruct Hp as (j & d & Ej & Hlt & Hs & Hd & Hin & Hack). rewrite Ej.
    constructor; cbn; try assumption.
    + now exists d.
    + intros i [= <-]. congruence.
    + discriminate.
  - (* PRemoveUpd *)
    constructor; cbn; try assumption. discriminate.
  - (* PRemoveDb *)
    apply inv_vdbs; [assumption| |].
    + intros x Hx. apply remove_nat_In in Hx. now apply Inv_.
    + intros i c E Hs Hc. apply remove_nat_In. split; [assumption|]. intros ->. now apply (Hp i d).
  - (* PDbApply *)
    pose proof (Idb d). apply inv_dbs; cbn; try assumption; lia.
  - (* PDbFlush *)
    pose proof (Idb d). apply inv_dbs; cbn; try assumption; lia.
  - (* PDbLoad *)
    apply inv_dbs; cbn; try assumption; try lia.
    intros i E Hs. now destruct (Hp i d E Hs).
  - (* PSetLive *)
    constructor; cbn; assumption.
  - (* PAck *)
    destruct Hp as (Hv & Hd & Hle). constructor; cbn; try assumption.
    + destruct (v_cur s) as [i|] eqn:E; [|congruence]. destruct Iv as (c & Hs & ? & ? & ?).
      exists c. repeat split; try assumption. apply (Hle i); auto.
    + destruct (d_cur s) as [i|] eqn:E; [|congruence]. destruct Id as (c & Hs & ? & ? & ?).
      exists c. repeat split; try assumption. apply (Hle i); auto.
  - contradiction.
Qed.

Definition Safe (ps : list prim) (s : st) : Prop := forall k, Inv (exec (firstn k ps) s).

Lemma exec_app a b s : exec (a ++ b) s = exec b (exec a s).
Proof. unfold exec. apply fold_left_app. Qed.
Lemma Safe_start ps s : Safe ps s -> Inv s.
Proof. intros H. exact (H 0). Qed.
Lemma Safe_nil s : Inv s -> Safe [] s.
Proof. intros H k. now rewrite firstn_nil. Qed.
Lemma Safe_step p ps s : Inv s -> pre p s -> Safe ps (exec1 s p) -> Safe (p :: ps) s.
Proof. intros H _ Hs [|k]; [exact H|exact (Hs k)]. Qed.

Fixpoint wp (ps : list prim) (Q : st -> Prop) (s : st) : Prop :=
  match ps with [] => Q s | p :: ps' => pre p s /\ wp ps' Q (exec1 s p) end.

Lemma wp_safe ps Q : forall s, Inv s -> wp ps Q s -> Safe ps s /\ Inv (exec ps s) /\ Q (exec ps s).
Proof.
  induction ps as [|p ps IH]; intros s HI H.
  - split; [now apply Safe_nil|now split].
  - destruct H as [Hp H]. destruct (IH _ (exec1_inv s p HI Hp) H) as (HS & HE).
    split; [now apply Safe_step|exact HE].
Qed.
Lemma wp_app a b Q : forall s, wp a (wp b Q) s -> wp (a ++ b) Q s.
Proof. induction a as [|p a IH]; intros s H; [exact H|]. split; [apply H|apply IH, H]. Qed.

(* CleanupNodeDataDir is safe when "current" names the directory that is kept; it changes nothing but the volatile
   listing and the name "current.updating" *)
Lemma wp_removes l (Q : st -> Prop) : forall s,
  (forall i x, v_cur s = Some i -> i_synced (inodes s i) = Some x -> ~ In x l) ->
  (forall v, Q (set_vdbs s v)) -> wp (map PRemoveDb l) Q s.
Proof.
  induction l as [|a l IH]; intros s Hc HQ; cbn [map wp].
  - specialize (HQ (v_dbs s)). now destruct s.
  - split.
    + intros i c Hi Hs ->. apply (Hc i c Hi Hs). now left.
    + apply IH; [|intros v; apply HQ]. intros i x Hi Hs Hx. apply (Hc i x Hi Hs). now right.
Qed.
Lemma wp_cleanup l c (Q : st -> Prop) s :
  (forall i, v_cur s = Some i -> i_synced (inodes s i) = Some c) ->
  (forall v, Q (set_vdbs (set_vnames s (v_cur s) None) v)) -> wp (cleanup l c) Q s.
Proof.
  intros Hc HQ. split; [exact I|]. apply wp_removes; [|exact HQ].
  intros i x Hi Hs Hx. apply remove_nat_In in Hx. cbn in Hi, Hs.
  rewrite (Hc i Hi) in Hs. injection Hs as <-. now destruct Hx.
Qed.
(* SaveCurrentDBDirName + ReplaceCurrentDBFile is safe for a directory that is listed and whose durable content covers
   the acknowledged batches *)
Lemma wp_publish d (Q : st -> Prop) s :
  In d (v_dbs s) -> ack s <= dur (dbs s d) -> Q (exec (publish d) s) -> wp (publish d) Q s.
Proof.
  intros Hin Hack HQ. repeat (split; [exact I|]). split; [|split; [exact I|exact HQ]].
  exists (ninodes s), d. cbn. rewrite !updf_same. cbn. repeat split; try assumption. lia.
Qed.

Record Good (s : st) : Prop := {
  G_inv : Inv s;
  G_same : v_cur s = d_cur s;
  G_nf : failed s = false;
  G_live : forall d, live s = Some d -> exists i, v_cur s = Some i /\ i_synced (inodes s i) = Some d;
  G_upd : live s <> None -> v_upd s = None
}.

Lemma Good0 : Good st0.
Proof. constructor; [exact Inv0|reflexivity|reflexivity|discriminate|reflexivity]. Qed.

(* the name counter may grow *)
Lemma inv_next s n : Inv s -> next s <= n -> Inv (set_next s n).
Proof.
  intros [Iv Ivd Id Idb Ivu Idu Inv_ Ind] Hn. constructor; cbn; try assumption.
  - (* I_nv *) intros d Hd. apply Inv_ in Hd. lia.
  - (* I_nd *) intros d Hd. apply Ind in Hd. lia.
Qed.
Lemma bump_inv h s : Inv s -> Inv (bump h s).
Proof. intros HI. destruct h; cbn [bump]; try exact HI; apply inv_next; auto. Qed.

Lemma bump_good h s : Good s -> Good (bump h s).
Proof. intros [HI H1 H2 H3 H4]. constructor; [now apply bump_inv|destruct h; assumption..]. Qed.

Lemma crash_good pick s : Inv s -> Good (crash pick s).
Proof.
  intros [Iv Ivd Id Idb Ivu Idu Inv_ Ind].
  assert (P : points (d_dbs s) (crash pick s) (d_cur s)).
  { apply (points_to Id); [reflexivity|apply le_n|].
    intros i c _ _ Hs Hc. cbn. destruct (Idb c). repeat split; try assumption. lia. }
  constructor; cbn.
  - (* G_inv: the volatile view is the durable one, every file its synced content *)
    constructor; cbn; try assumption.
    + (* I_vd *) reflexivity.
    + (* I_db *) intros x. destruct (Idb x). lia.
    + (* I_vu *) intros j Hj. split; now apply Idu.
  - (* G_same *) reflexivity.
  - (* G_nf *) reflexivity.
  - (* G_live: the process is gone *) discriminate.
  - (* G_upd *) intros H. now contradiction H.
Qed.

(* when both names lead to the inode i whose synced content is c, what holds of c holds of whatever a "current" names *)
Lemma both_cur (P : nat -> Prop) s i c : v_cur s = Some i -> d_cur s = Some i -> i_synced (inodes s i) = Some c -> P c ->
  forall i' c', v_cur s = Some i' \/ d_cur s = Some i' -> i_synced (inodes s i') = Some c' -> P c'.
Proof.
  intros Ev Ed Es HP i' c' E Hc. assert (i' = i) by (destruct E; congruence). subst i'.
  rewrite Es in Hc. now injection Hc as <-.
Qed.
Lemma ack_pre s i c n :
  v_cur s = Some i -> d_cur s = Some i -> i_synced (inodes s i) = Some c -> n <= dur (dbs s c) -> pre (PAck n) s.
Proof.
  intros Ev Ed Es Hn. cbn. split; [congruence|]. split; [congruence|].
  exact (both_cur (fun c => n <= dur (dbs s c)) s i c Ev Ed Es Hn).
Qed.

(* A state is a nest of setters.  Reduce it only at the leaves of a proof and only by this list: a plain [cbn], or the
   conversion in [exact H] between a reduced and an unreduced nest a dozen deep, does not come back. *)
Ltac pcbn := cbn [inodes ninodes v_cur v_upd d_cur d_upd v_dbs d_dbs dbs live next ack top failed set_ino set_newino
                   set_vnames set_vdbs set_dbs set_live set_ack set_next sync_dir set_fail exec1 exec fold_left pre bump
                   mem dur i_data i_synced points].

(* the DB a (re)open opens, and what an operation leaves alone beyond what [Good] says *)
Definition opened (s : st) : nat := match read_cur s with Some c => c | None => next s end.
Definition post (h : hop) (s s' : st) : Prop :=
  match h with
  | HOpen => live s' = Some (opened s) /\ dbs s' = dbs s /\ top s' = top s
  | HRecoverStop _ => live s' = live s /\ dbs s' = dbs s /\ ack s' = ack s /\ v_cur s' = v_cur s /\ d_cur s' = d_cur s /\
                      inodes s' = inodes s
  | _ => True
  end.

(* every operation, from a good state: each primitive step finds its precondition; good again at the end.
   [Good] is shown under [Inv s']: [wp_safe] supplies the invariant of the last state from the preconditions. *)
Lemma hop_wp h s : Good s -> wp (expand h s) (fun s' => (Inv s' -> Good s') /\ post h s s') (bump h s).
Proof.
  intros HG. pose proof HG as [HI Hsame Hnf Hlive Hupd]. destruct h; unfold expand, post; cbn [expand_gen].
  - (* HOpen *)
    unfold opened, read_cur. destruct (v_cur s) as [i|] eqn:Ev.
    + (* an existing table: "current" names a listed directory; everything else goes *)
      pose proof (I_v s HI) as P. rewrite Ev in P. destruct P as (c & Hs & Hin & _).
      rewrite (I_vd s HI i Ev), Hs. apply mem_nat_In in Hin. rewrite Hin.
      apply wp_app, wp_cleanup; [pcbn; congruence|].
      intros v. split; [exact I|]. split; [|pcbn; auto].
      intros HI'. constructor; [exact HI'|pcbn..].
      * congruence.
      * exact Hnf.
      * intros d [= <-]. now exists i.
      * reflexivity.
    + (* first open: the fresh directory is made and its entry synced, then published *)
      assert (Hack0 : ack s = 0) by (pose proof (I_v s HI) as P; now rewrite Ev in P).
      cbn [app wp]. split; [pcbn; lia|]. split; [exact I|].
      apply wp_app, wp_publish; [apply mkdb_listed|pcbn; lia|].
      split; [exact I|]. unfold publish. split; [|pcbn; auto].
      intros HI'. constructor; [exact HI'|pcbn..].
      * reflexivity.
      * exact Hnf.
      * intros d [= <-]. exists (ninodes s). now rewrite !updf_same.
      * reflexivity.
  - (* HUpdate *)
    destruct (live s) as [d|] eqn:El in |- *; [|split; [intros _; exact HG|exact I]].
    split; [exact I|]. split; [|exact I]. intros HI'. now constructor.
  - (* HSync: the acknowledged count is raised once the live DB, which both "current" name, is flushed *)
    destruct (live s) as [d|] eqn:El in |- *; [|split; [intros _; exact HG|exact I]].
    destruct (Hlive d El) as (i & Ei & Es).
    split; [exact I|]. split; [|split; [|exact I]].
    + apply (ack_pre _ i d); pcbn; [congruence..|]. now rewrite updf_same.
    + intros HI'. now constructor.
  - (* HClose *)
    destruct (live s) as [d|] eqn:El in |- *; [|split; [intros _; exact HG|exact I]].
    destruct (Hlive d El) as (i & Ei & Es).
    split; [exact I|]. split; [exact I|]. split; [|split; [|exact I]].
    + apply (ack_pre _ i d); pcbn; [congruence..|]. now rewrite updf_same.
    + intros HI'. constructor; [exact HI'|pcbn..].
      * (* G_same *) assumption.
      * (* G_nf *) assumption.
      * (* G_live *) discriminate.
      * (* G_upd *) now intros [].
  - (* HRecover *)
    destruct (live s) as [old|] eqn:El in |- *; [|split; [intros _; exact (bump_good _ _ HG)|exact I]].
    destruct (n <? mem (dbs s old)) eqn:En; [split; [intros _; exact (bump_good _ _ HG)|exact I]|].
    apply Nat.ltb_ge in En. destruct (Hlive old El) as (i & Ei & Es).
    destruct (cur_target s i HI (or_introl Ei)) as (_ & c & Hc & Hlt & Hack).
    rewrite Es in Hc. injection Hc as <-.
    pose proof (I_db s HI old) as [Hdm _].
    (* the fresh directory is made and loaded: neither "current" names it *)
    cbn [app wp]. split; [pcbn; lia|]. split.
    { pcbn. apply (both_cur (fun c => c <> next s) s i old); [congruence..|lia]. }
    (* it is listed and holds n >= acknowledged batches durably: publish it *)
    apply wp_app, wp_publish; [apply mkdb_listed|pcbn; rewrite updf_same; pcbn; lia|].
    split; [exact I|].
    (* "current" names it now: clean up, acknowledge *)
    unfold publish. apply wp_app, wp_cleanup.
    { pcbn. intros ? [= <-]. now rewrite !updf_same. }
    intros v. split; [|split; [|exact I]].
    + apply (ack_pre _ (ninodes s) (next s)); pcbn; [reflexivity..| |]; now rewrite ?updf_same.
    + intros HI'. constructor; [exact HI'|pcbn..].
      * reflexivity.
      * exact Hnf.
      * intros d [= <-]. exists (ninodes s). now rewrite !updf_same.
      * reflexivity.
  - (* HRecoverStop: the fresh directory is made, "current" is not touched *)
    destruct (live s) as [old|] eqn:El in |- *.
    2: { split; [intros _; exact (bump_good _ _ HG)|]. pcbn. repeat split; assumption. }
    destruct (Hlive old El) as (i & Ei & Es).
    split; [pcbn; lia|]. destruct clean.
    + apply wp_cleanup; [pcbn; congruence|].
      intros v. split; [|pcbn; repeat split; assumption]. intros HI'. now constructor.
    + split; [|pcbn; repeat split; assumption]. intros HI'. now constructor.
Qed.

Lemma hop_run h s : Good s ->
  let s' := exec (expand h s) (bump h s) in Safe (expand h s) (bump h s) /\ Good s' /\ post h s s'.
Proof.
  intros HG. destruct (wp_safe _ _ _ (bump_inv h s (G_inv s HG)) (hop_wp h s HG)) as (HS & HI & HQ & HP).
  split; [exact HS|]. split; [exact (HQ HI)|exact HP].
Qed.
Lemma hop_safe_good h s : Good s -> Safe (expand h s) (bump h s) /\ Good (exec (expand h s) (bump h s)).
Proof. intros HG. destruct (hop_run h s HG) as (HS & HG' & _). now split. Qed.

Lemma run_prefix_inv hs : forall k s, Good s -> Inv (run hs k s).
Proof.
  induction hs as [|h hs IH]; intros k s HG; [apply (G_inv s HG)|].
  unfold run in *. cbn [run_gen]. destruct (hop_safe_good h s HG) as [HS HG'].
  fold (expand h s). destruct (k <? length (expand h s)); [apply HS|apply IH; exact HG'].
Qed.

Lemma eras_good_from es : forall s, Good s -> Good (fold_left (run_era_gen true) es s).
Proof.
  induction es as [|e es IH]; intros s HG; [exact HG|]. cbn [fold_left]. apply IH.
  unfold run_era_gen. apply crash_good. now apply run_prefix_inv.
Qed.
Lemma eras_good es : Good (run_eras es).
Proof. apply eras_good_from. exact Good0. Qed.

(* from a good state it succeeds and reports the content of the DB it opens, which is at least the acknowledged
   batches and nothing that was never applied *)
Lemma reopen_shows s : Good s -> reopen s = Some (mem (dbs s (opened s))).
Proof.
  intros HG. destruct (hop_run HOpen s HG) as (_ & HG' & Hl & Hd & _).
  unfold reopen, reopen_gen. fold (expand HOpen s). now rewrite (G_nf _ HG'), Hl, Hd.
Qed.
Theorem reopen_bounds s : Good s -> exists b, reopen s = Some b /\ ack s <= b <= top s.
Proof.
  intros HG. exists (mem (dbs s (opened s))). split; [now apply reopen_shows|].
  pose proof (G_inv s HG) as HI. pose proof (I_v s HI) as P.
  unfold opened, read_cur. destruct (v_cur s) as [i|] eqn:Ev.
  - destruct P as (c & Hs & _ & Ha & _). rewrite (I_vd s HI i Ev), Hs. destruct (I_db s HI c). lia.
  - cbn in P. destruct (I_db s HI (next s)). lia.
Qed.
(* after a crash at any state the invariant holds in: the content of the DB the durable "current" names (the fresh one
   if there is none), cut back to whole batches between its durable and its volatile content *)
Theorem crash_reopen_exact pick s : Inv s ->
  reopen (crash pick s) =
  Some (let c := opened (crash pick s) in Nat.min (mem (dbs s c)) (dur (dbs s c) + pick c)).
Proof. intros HI. now rewrite (reopen_shows _ (crash_good pick s HI)). Qed.

Fixpoint updates (k : nat) (s : st) : st :=
  match k with O => s | S k' => updates k' (exec (expand HUpdate s) (bump HUpdate s)) end.
Lemma updates_reach k : forall s d, live s = Some d ->
  live (updates k s) = Some d /\ mem (dbs (updates k s) d) = mem (dbs s d) + k.
Proof.
  induction k as [|k IH]; intros s d Hl; [cbn; split; [assumption|lia]|].
  cbn [updates]. unfold expand. cbn [expand_gen]. rewrite Hl.
  destruct (IH (exec [PDbApply d] (bump HUpdate s)) d) as [H1 H2]; [cbn; assumption|].
  split; [assumption|]. rewrite H2. cbn. rewrite updf_same. cbn. lia.
Qed.

Lemma exec_firstn_app a b k s : exec (firstn k (a ++ b)) s = exec (firstn (k - length a) b) (exec (firstn k a) s).
Proof. now rewrite firstn_app, exec_app. Qed.

(* steps that touch neither the durable names, nor a file, nor a DB *)
Definition quiet (p : prim) : Prop :=
  match p with PSetLive _ | PRemoveUpd | PRemoveDb _ | PAck _ => True | _ => False end.
Lemma quiet_prefix ps : Forall quiet ps -> forall k s,
  d_cur (exec (firstn k ps) s) = d_cur s /\ inodes (exec (firstn k ps) s) = inodes s /\ dbs (exec (firstn k ps) s) = dbs s.
Proof.
  induction 1 as [|p ps Hp _ IH]; intros k s; [now rewrite firstn_nil|].
  destruct k as [|k]; [now cbn|]. specialize (IH k (exec1 s p)). destruct p; try contradiction; exact IH.
Qed.

(* Where the durable "current" leads at any primitive step of an install: to the old DB, untouched, or to the fresh
   one, loaded.  The switch is the second sync of the directory, the last step of the publication: the eight steps up
   to it are walked through one by one, and what follows it is quiet. *)
Lemma install_switch n s old k : Good s -> live s = Some old -> mem (dbs s old) <= n ->
  let sk := exec (firstn k (expand (HRecover n) s)) (bump (HRecover n) s) in
  exists i c, d_cur sk = Some i /\ i_synced (inodes sk i) = Some c /\
    (c = old /\ dbs sk old = dbs s old \/ c = next s /\ dbs sk (next s) = {| mem := n; dur := n |}).
Proof.
  intros HG El Hn. cbn zeta. pose proof HG as [HI Hsame Hnf Hlive Hupd]. destruct (Hlive old El) as (i & Ei & Es).
  (* the old inode is in use and the old DB has a name that was drawn: neither is the fresh one *)
  assert (i <> ninodes s /\ old <> next s) as [Hi Hod].
  { destruct (cur_target s i HI (or_introl Ei)) as (Hi & c & Hc & Hlt & _). rewrite Es in Hc. injection Hc as <-. lia. }
  unfold expand. cbn [expand_gen]. rewrite El, (proj2 (Nat.ltb_ge _ _) Hn).
  rewrite app_assoc, exec_firstn_app. edestruct quiet_prefix as (-> & -> & ->).
  { constructor; [exact I|]. constructor; [exact I|]. apply Forall_app. split; [|now constructor].
    induction (remove_nat (next s) (next s :: v_dbs s)); now constructor. }
  unfold publish. cbn [app]. destruct k as [|[|[|[|[|[|[|[|k]]]]]]]]; cbn [firstn].
  (* before the switch: the durable "current" is the old inode; the steps so far wrote to the fresh inode and DB only *)
  1-8: exists i, old; pcbn; rewrite <- ?Hsame, ?updf_other by assumption; auto.
  (* after it: the fresh inode, whose synced content is the fresh DB *)
  exists (ninodes s), (next s). rewrite firstn_nil. pcbn. rewrite !updf_same. auto.
Qed.

(* all or nothing: the reopened table shows the snapshot (n batches) or what the old DB held (between its durable and
   its volatile content) *)
Theorem recover_old_or_new n s old pick k : Good s -> live s = Some old -> mem (dbs s old) <= n ->
  exists b, reopen (crash pick (exec (firstn k (expand (HRecover n) s)) (bump (HRecover n) s))) = Some b /\
            (b = n \/ dur (dbs s old) <= b <= mem (dbs s old)).
Proof.
  intros HG El Hn. destruct (install_switch n s old k HG El Hn) as (i & c & Ed & Hc & Hcase).
  destruct (hop_safe_good (HRecover n) s HG) as [HS _]. specialize (HS k).
  set (sk := exec (firstn k (expand (HRecover n) s)) (bump (HRecover n) s)) in *.
  rewrite (crash_reopen_exact pick sk HS).
  replace (opened (crash pick sk)) with c by (unfold opened, read_cur; cbn; now rewrite Ed, Hc).
  eexists. split; [reflexivity|]. cbn zeta.
  destruct Hcase as [[-> Hdb]|[-> Hdb]]; rewrite Hdb.
  - right. destruct (I_db s (G_inv s HG) old). lia.
  - left. cbn. lia.
Qed.
