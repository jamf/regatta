(* storage/queue.go: every table's waiter heap keeps the order invariant through Add, notifications and sweeps, and a
   notification at leader index r leaves no waiter with revision <= r behind (promptness of C11). *)
From Coq Require Import Lia Permutation.
From Verif Require Import Model.Queue Proofs.HeapOrder Proofs.QueueFacts.

Notation hok := (heap_ok item lessi ditem).

Lemma lei_rev x y : le item lessi x y = true <-> it_rev x <= it_rev y.
Proof. unfold le, lessi. rewrite negb_true_iff. apply N.ltb_ge. Qed.
Lemma lei_trans x y z : le item lessi x y = true -> le item lessi y z = true -> le item lessi x z = true.
Proof. rewrite !lei_rev. apply N.le_trans. Qed.
Lemma lessi_le x y : lessi x y = true -> le item lessi x y = true.
Proof. intros H. apply lei_rev, N.lt_le_incl, N.ltb_lt, H. Qed.

Lemma root_min h e : hok h -> peek item h = Some e -> forall x, In x h -> it_rev e <= it_rev x.
Proof.
  intros Hh Hp x Hx. destruct h as [|e0 r]; [discriminate|]. cbn in Hp. injection Hp as <-.
  destruct (In_nth _ _ ditem Hx) as [i [Hi <-]]. apply lei_rev.
  exact (peek_min item lessi ditem lei_trans lessi_le (e0 :: r) Hh i Hi).
Qed.

Theorem notify_complete canc rev fuel : forall h cs ans h' cs' ans', (length h <= fuel)%nat -> hok h ->
  notify_loop fuel canc rev h cs ans = (Fine, h', cs', ans') ->
  hok h' /\ forall x, In x h' -> rev < it_rev x.
Proof.
  intros h cs ans h' cs' ans' Hl Hh E.
  assert (Hstep : forall e r h1 (cs1 : list (nat * chan)) (ans1 : list (nat * answer)) (a : answer), hok (e :: r) ->
            verdict canc rev e = Some a -> pop item lessi ditem (e :: r) = Some (e, h1) -> Permutation h1 r -> hok h1).
  { intros e r h1 _ _ _ H1 _ Ep _. exact (pop_ok item lessi ditem lei_trans lessi_le H1 Ep). }
  pose proof (notify_loop_rule canc rev (fun h1 _ _ => hok h1) Hstep fuel h cs ans Hh) as R.
  rewrite E in R. destruct R as (Hh' & _ & Hend).
  split; [exact Hh'|]. intros x Hx. destruct h' as [|e r]; [destruct Hx|].
  (* the root that ended the loop is the minimum *)
  pose proof (root_min _ e Hh' eq_refl x Hx). pose proof (verdict_none _ _ _ (Hend eq_refl Hl)). lia.
Qed.

Arguments notify_complete {canc rev fuel h cs ans h' cs' ans'}.

Definition all_heaps_ok (s : qstate) : Prop := forall t, hok (hget (heaps s) t).

Lemma hok_nil : hok [].
Proof. intros i Hi. cbn in Hi. lia. Qed.

Lemma hget_hset hs t h t' : hget (hset hs t h) t' = if t =? t' then h else hget hs t'.
Proof.
  induction hs as [|[k h0] r IH]; cbn.
  - destruct (N.eqb_spec t t'); reflexivity.
  - destruct (N.eqb_spec k t) as [->|Hkt]; cbn.
    + destruct (N.eqb_spec t t'); reflexivity.
    + destruct (N.eqb_spec k t') as [->|Hkt'].
      * destruct (N.eqb_spec t t'); [congruence|reflexivity].
      * exact IH.
Qed.

Lemma sweep_all_ok canc : forall hs cs ans hs' cs' ans', sweep_all canc hs cs ans = (Fine, hs', cs', ans') ->
  forall t, hok (hget hs' t).
Proof.
  induction hs as [|[k h] r IH]; intros cs ans hs' cs' ans' Hs t.
  - cbn in Hs. injection Hs as <- _ _. apply hok_nil.
  - cbn [sweep_all] in Hs. destruct (sweep_scan canc h cs ans) as [[[o live] cs1] ans1].
    destruct o; try discriminate.
    destruct (sweep_all canc r cs1 ans1) as [[[o2 r'] cs2] ans2] eqn:E2. injection Hs as -> <- _ _.
    cbn [hget]. destruct (k =? t); [apply (heapify_ok item lessi ditem lei_trans lessi_le)|].
    exact (IH _ _ _ _ _ E2 t).
Qed.

Arguments sweep_all_ok {canc hs cs ans hs' cs' ans'}.

Theorem step_heaps_ok s e s' r : all_heaps_ok s -> step s e = (Fine, s', r) -> all_heaps_ok s'.
Proof.
  intros Hs He. destruct e as [id t rv|id|t rv| |id|t]; cbn [step] in He.
  - injection He as <- _. intros t'. cbn [heaps]. rewrite hget_hset. destruct (t =? t'); [|apply Hs].
    apply (push_ok item lessi ditem lei_trans lessi_le). apply Hs.
  - injection He as <- _. exact Hs.
  - destruct (notify_loop _ _ _ _ _ _) as [[[o h'] cs'] ans'] eqn:En. injection He as -> <- _.
    intros t'. cbn [heaps]. rewrite hget_hset. destruct (t =? t'); [|apply Hs].
    exact (proj1 (notify_complete (le_n _) (Hs t) En)).
  - destruct (sweep_all _ _ _ _) as [[[o hs'] cs'] ans'] eqn:Es. injection He as -> <- _.
    intros t'. cbn [heaps]. exact (sweep_all_ok Es t').
  - injection He as <- _. exact Hs.
  - injection He as <- _. exact Hs.
Qed.

Theorem run_heaps_ok es : forall s, all_heaps_ok s -> Forall (fun o => o = Fine) (fst (run s es)) -> all_heaps_ok (snd (run s es)).
Proof.
  induction es as [|e es IH]; intros s Hs Hf; [exact Hs|].
  cbn [run] in *. destruct (step s e) as [[o s'] r] eqn:Est. destruct o.
  - destruct (run s' es) as [os s''] eqn:Er. cbn [fst snd] in *. inversion Hf as [|? ? _ Hf']; subst.
    specialize (IH s' (step_heaps_ok _ _ _ _ Hs Est)). rewrite Er in IH. exact (IH Hf').
  - cbn in Hf. inversion Hf as [|? ? Hb _]; discriminate.
  - cbn in Hf. inversion Hf as [|? ? Hb _]; discriminate.
Qed.

Theorem notify_prompt s t rev s' r : all_heaps_ok s -> step s (ENotify t rev) = (Fine, s', r) ->
  forall x, In x (hget (heaps s') t) -> rev < it_rev x.
Proof.
  intros Hs He. cbn [step] in He.
  destruct (notify_loop _ _ _ _ _ _) as [[[o h'] cs'] ans'] eqn:En. injection He as -> <- _.
  cbn [heaps]. rewrite hget_hset, N.eqb_refl.
  exact (proj2 (notify_complete (le_n _) (Hs t) En)).
Qed.
