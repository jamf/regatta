(* storage/table/manager.go storedTableName / getTables: the catalogue lives in the metadata store under
   "/tables/<name>"; the listing is the glob "/tables/*" (path.Match: '*' does not cross '/').  For names that are path
   segments the glob selects exactly the table records - not the id sequence "/tables/sys/idseq", not a lease
   "/tables/<name>/lease" - and different names have different keys. *)
From Coq Require Import Lia.
From Verif Require Import Model.MetaKV.

Definition tables_prefix : bytes := [47; 116; 97; 98; 108; 101; 115; 47].        (* "/tables/" *)
Definition stored_table_name (name : bytes) : bytes := tables_prefix ++ name.     (* fmt.Sprintf("%s%s", keyPrefix, name) *)
Definition tables_pattern : bytes := tables_prefix ++ [star].                     (* keyPrefix + "*" *)
Definition no_slash (s : bytes) : bool := forallb (fun d => negb (d =? slash)) s.

Lemma glob_literal p : Forall (fun c => c <> star) p -> forall q s, glob (p ++ q) (p ++ s) = glob q s.
Proof.
  induction p as [|c p IH]; intros Hp q s; [reflexivity|]. inversion Hp as [|? ? Hc Hp']; subst.
  cbn [app glob]. destruct (N.eqb_spec c star); [contradiction|]. rewrite N.eqb_refl. cbn [andb]. now apply IH.
Qed.
Lemma glob_literal_mismatch p : Forall (fun c => c <> star) p -> forall q s, (length s < length p)%nat -> glob (p ++ q) s = false.
Proof.
  induction p as [|c p IH]; intros Hp q s Hl; [cbn in Hl; lia|]. inversion Hp as [|? ? Hc Hp']; subst.
  cbn [app glob]. destruct (N.eqb_spec c star); [contradiction|]. destruct s as [|d s]; [reflexivity|].
  cbn in Hl. rewrite (IH Hp' q s) by lia. apply andb_false_r.
Qed.

Lemma glob_star s : glob [star] s = no_slash s.
Proof.
  induction s as [|d s IH]; [reflexivity|].
  change (glob [star] (d :: s)) with (glob [] (d :: s) || (negb (d =? slash) && glob [star] s)).
  replace (glob [] (d :: s)) with false by reflexivity. cbn [orb]. rewrite IH. reflexivity.
Qed.

Lemma prefix_literal : Forall (fun c => c <> star) tables_prefix.
Proof. unfold tables_prefix, star. repeat constructor; discriminate. Qed.

Theorem listing_selects_tables name : no_slash name = true -> glob tables_pattern (stored_table_name name) = true.
Proof.
  intros H. unfold tables_pattern, stored_table_name. rewrite (glob_literal _ prefix_literal). now rewrite glob_star.
Qed.
Theorem listing_skips_deeper name rest : glob tables_pattern (stored_table_name (name ++ slash :: rest)) = false.
Proof.
  unfold tables_pattern, stored_table_name. rewrite (glob_literal _ prefix_literal), glob_star.
  unfold no_slash. rewrite forallb_app. cbn [forallb]. rewrite N.eqb_refl. cbn. apply andb_false_r.
Qed.
Theorem stored_name_injective a b : stored_table_name a = stored_table_name b -> a = b.
Proof. unfold stored_table_name. apply app_inv_head. Qed.
Theorem stored_name_is_a_segment a b rest : no_slash a = true -> stored_table_name a <> stored_table_name (b ++ slash :: rest).
Proof.
  intros Ha E. apply stored_name_injective in E. subst a. unfold no_slash in Ha. rewrite forallb_app in Ha.
  cbn [forallb] in Ha. rewrite N.eqb_refl in Ha. cbn in Ha. now rewrite andb_false_r in Ha.
Qed.
