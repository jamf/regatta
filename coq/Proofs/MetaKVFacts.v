From Coq Require Import Lia Sorted.
From Verif Require Import Model.MetaKV Proofs.BytesFacts Proofs.SMapFacts.

(* compare-and-set: one equation for LFSM.Update (storage/kv/raft.go); the case lemmas are its instances *)
Definition apply_op (s : mstore) (e : mentry) : mstore :=
  match me_op e with
  | OpSet => sset s (me_key e) (me_val e, me_index e)
  | OpDelete => sdel s (me_key e)
  | OpOther => s
  end.

Definition cas_ok (s : mstore) (e : mentry) : bool :=
  match sget s (me_key e) with Some (_, ver) => ver =? me_ver e | None => me_ver e =? 0 end.

(* the pair a mismatch reports: the stored one, for an absent key Pair{Key: key} *)
Definition current (s : mstore) (k : bytes) : pair :=
  match mget s k with Some p => p | None => {| pk := k; pv := []; pver := 0 |} end.
Definition stamped (e : mentry) : pair := {| pk := me_key e; pv := me_val e; pver := me_index e |}.

Theorem mupdate_eq s e :
  mupdate s e = if cas_ok s e then (apply_op s e, (kv_ResultCodeSuccess, stamped e))
                else (s, (kv_ResultCodeVersionMismatch, current s (me_key e))).
Proof.
  unfold mupdate, cas_ok, current, mget, apply_op. destruct (sget s (me_key e)) as [[v ver]|]; cbn [pver].
  - now destruct (ver =? me_ver e).
  - now destruct (me_ver e =? 0).
Qed.

Lemma cas_ok_current s e : cas_ok s e = (pver (current s (me_key e)) =? me_ver e).
Proof. unfold cas_ok, current, mget. destruct (sget s (me_key e)) as [[v ver]|]; [reflexivity|apply N.eqb_sym]. Qed.

Lemma mupdate_mismatch s e cur :
  mget s (me_key e) = Some cur -> pver cur <> me_ver e ->
  mupdate s e = (s, (kv_ResultCodeVersionMismatch, cur)).
Proof.
  intros Hg Hv. rewrite mupdate_eq, cas_ok_current. unfold current. rewrite Hg.
  now rewrite (proj2 (N.eqb_neq _ _) Hv).
Qed.

Lemma mupdate_match s e cur :
  mget s (me_key e) = Some cur -> pver cur = me_ver e ->
  mupdate s e = (apply_op s e, (kv_ResultCodeSuccess, stamped e)).
Proof. intros Hg Hv. rewrite mupdate_eq, cas_ok_current. unfold current. rewrite Hg, Hv. now rewrite N.eqb_refl. Qed.

Lemma mupdate_absent s e :
  mget s (me_key e) = None -> me_ver e = 0 ->
  mupdate s e = (apply_op s e, (kv_ResultCodeSuccess, stamped e)).
Proof. intros Hg Hv. rewrite mupdate_eq, cas_ok_current. unfold current. now rewrite Hg, Hv. Qed.

Lemma mupdate_absent_mismatch s e :
  mget s (me_key e) = None -> me_ver e <> 0 ->
  mupdate s e = (s, (kv_ResultCodeVersionMismatch, {| pk := me_key e; pv := []; pver := 0 |})).
Proof.
  intros Hg Hv. rewrite mupdate_eq, cas_ok_current. unfold current. rewrite Hg. cbn [pver].
  now rewrite N.eqb_sym, (proj2 (N.eqb_neq _ _) Hv).
Qed.

Lemma mupdate_code s e :
  fst (snd (mupdate s e)) = if cas_ok s e then kv_ResultCodeSuccess else kv_ResultCodeVersionMismatch.
Proof. rewrite mupdate_eq. now destruct (cas_ok s e). Qed.

Lemma mupdate_state s e : fst (mupdate s e) = if cas_ok s e then apply_op s e else s.
Proof. rewrite mupdate_eq. now destruct (cas_ok s e). Qed.

Lemma mupdate_mismatch_reports_current s e :
  cas_ok s e = false ->
  (exists v ver, sget s (me_key e) = Some (v, ver) /\ ver <> me_ver e /\
     snd (snd (mupdate s e)) = {| pk := me_key e; pv := v; pver := ver |}) \/
  (sget s (me_key e) = None /\ me_ver e <> 0 /\ snd (snd (mupdate s e)) = {| pk := me_key e; pv := []; pver := 0 |}).
Proof.
  intros H. rewrite mupdate_eq, H. cbn [snd]. unfold cas_ok in H. unfold current, mget.
  destruct (sget s (me_key e)) as [[v ver]|]; apply N.eqb_neq in H.
  - left. exists v, ver. auto.
  - right. auto.
Qed.

Lemma apply_op_sorted s e : sorted s -> sorted (apply_op s e).
Proof. intros H. unfold apply_op. destruct (me_op e); [apply sset_sorted|apply sdel_sorted|]; assumption. Qed.

Lemma mupdate_sorted s e : sorted s -> sorted (fst (mupdate s e)).
Proof. intros H. rewrite mupdate_state. destruct (cas_ok s e); [apply apply_op_sorted|]; assumption. Qed.

Definition amap := bytes -> option mval.
Definition aupd (m : amap) (k : bytes) (o : option mval) : amap := fun k' => if beqb k' k then o else m k'.
Definition spec_update (m : amap) (e : mentry) : amap :=
  let ok := match m (me_key e) with Some (_, ver) => ver =? me_ver e | None => me_ver e =? 0 end in
  if ok then match me_op e with
             | OpSet => aupd m (me_key e) (Some (me_val e, me_index e))
             | OpDelete => aupd m (me_key e) None
             | OpOther => m
             end
  else m.

Theorem mupdate_refines s e : sorted s -> forall k, sget (fst (mupdate s e)) k = spec_update (sget s) e k.
Proof.
  intros Hs k. rewrite mupdate_state. unfold spec_update. fold (cas_ok s e).
  destruct (cas_ok s e); [|reflexivity].
  unfold apply_op, aupd. destruct (me_op e).
  - apply sget_sset.
  - apply sget_sdel, Hs.
  - reflexivity.
Qed.

Lemma mrun_cons s e r : fst (mrun s (e :: r)) = fst (mrun (fst (mupdate s e)) r).
Proof. cbn [mrun]. destruct (mupdate s e) as [s1 o]. cbn [fst]. now destruct (mrun s1 r). Qed.

Lemma mrun_sorted es : forall s, sorted s -> sorted (fst (mrun s es)).
Proof.
  induction es as [|e r IH]; intros s H; [exact H|].
  rewrite mrun_cons. apply IH. now apply mupdate_sorted.
Qed.

Fixpoint spec_run (m : amap) (es : list mentry) : amap :=
  match es with [] => m | e :: r => spec_run (spec_update m e) r end.

Lemma spec_update_ext m1 m2 e : (forall k, m1 k = m2 k) -> forall k, spec_update m1 e k = spec_update m2 e k.
Proof.
  intros H k. unfold spec_update. rewrite (H (me_key e)).
  destruct (match m2 (me_key e) with Some (_, ver) => ver =? me_ver e | None => me_ver e =? 0 end); [|apply H].
  destruct (me_op e); unfold aupd.
  - (* OpSet *) destruct (beqb k (me_key e)); [reflexivity|apply H].
  - (* OpDelete *) destruct (beqb k (me_key e)); [reflexivity|apply H].
  - (* OpOther *) apply H.
Qed.

Lemma spec_run_ext es : forall m1 m2, (forall k, m1 k = m2 k) -> forall k, spec_run m1 es k = spec_run m2 es k.
Proof.
  induction es as [|e r IH]; intros m1 m2 H k; simpl; [apply H|].
  apply IH. now apply spec_update_ext.
Qed.

Theorem mrun_refines es : forall s, sorted s -> forall k, sget (fst (mrun s es)) k = spec_run (sget s) es k.
Proof.
  induction es as [|e r IH]; intros s Hs k; [reflexivity|].
  rewrite mrun_cons, IH by now apply mupdate_sorted.
  cbn [spec_run]. apply spec_run_ext. intros k'. now apply mupdate_refines.
Qed.

Theorem mrun_app a : forall s b,
  mrun s (a ++ b) = let '(s1, o1) := mrun s a in let '(s2, o2) := mrun s1 b in (s2, o1 ++ o2).
Proof.
  induction a as [|e r IH]; intros s b; simpl.
  - destruct (mrun s b); reflexivity.
  - destruct (mupdate s e) as [s1 o]. rewrite IH.
    destruct (mrun s1 r) as [s2 o2]. destruct (mrun s2 b) as [s3 o3]. reflexivity.
Qed.

Definition versions_below (s : mstore) (n : N) : Prop := forall k v ver, sget s k = Some (v, ver) -> ver < n.

Lemma mupdate_versions s e n :
  sorted s -> versions_below s n -> n <= me_index e -> versions_below (fst (mupdate s e)) (me_index e + 1).
Proof.
  intros Hs Hb Hn.
  assert (Hold : forall k v ver, sget s k = Some (v, ver) -> ver < me_index e + 1).
  { intros k v ver H. specialize (Hb _ _ _ H). lia. }
  intros k v ver. rewrite mupdate_state. destruct (cas_ok s e); [|apply Hold].
  unfold apply_op. destruct (me_op e).
  - (* OpSet *)
    rewrite sget_sset. destruct (beqb k (me_key e)); [|apply Hold]. intros [= _ <-]. lia.
  - (* OpDelete *)
    rewrite sget_sdel by exact Hs. destruct (beqb k (me_key e)); [discriminate|apply Hold].
  - (* OpOther *)
    apply Hold.
Qed.

Theorem set_fresh_version s e n :
  sorted s -> versions_below s n -> n <= me_index e -> me_op e = OpSet -> cas_ok s e = true ->
  sget (fst (mupdate s e)) (me_key e) = Some (me_val e, me_index e) /\
  pver (snd (snd (mupdate s e))) = me_index e /\
  (forall k v ver, sget s k = Some (v, ver) -> ver < me_index e).
Proof.
  intros Hs Hb Hn Hop Hok. rewrite mupdate_eq, Hok. cbn [fst snd]. split; [|split].
  - unfold apply_op. now rewrite Hop, sget_sset, beqb_refl.
  - reflexivity.
  - intros k v ver H. specialize (Hb _ _ _ H). lia.
Qed.

Fixpoint increasing_from (n : N) (es : list mentry) : Prop :=
  match es with [] => True | e :: r => n <= me_index e /\ increasing_from (me_index e + 1) r end.

Theorem mrun_versions es : forall s n,
  sorted s -> versions_below s n -> increasing_from n es ->
  exists n', versions_below (fst (mrun s es)) n' /\ n <= n' /\
             Forall (fun e => me_index e < n') es.
Proof.
  induction es as [|e r IH]; intros s n Hs Hb Hi.
  - exists n. repeat split; auto; lia.
  - destruct Hi as [Hn Hr]. rewrite mrun_cons.
    destruct (IH (fst (mupdate s e)) (me_index e + 1)) as (n' & Hv & Hle & Hall).
    + now apply mupdate_sorted.
    + eapply mupdate_versions; eauto.
    + exact Hr.
    + exists n'. repeat split; [exact Hv|lia|]. constructor; [lia|exact Hall].
Qed.

Theorem mgetall_spec s pat p :
  sorted s -> (In p (mgetall s pat) <-> mget s (pk p) = Some p /\ glob pat (pk p) = true).
Proof.
  intros Hs. unfold mgetall. rewrite in_map_iff. split.
  - intros ([k [v ver]] & <- & Hin). apply filter_In in Hin. destruct Hin as [Hin Hg]. simpl in *.
    split; [|assumption]. unfold mget. apply (sget_in s k (v, ver) Hs) in Hin. now rewrite Hin.
  - intros [Hg Hm]. unfold mget in Hg. destruct (sget s (pk p)) as [[v ver]|] eqn:E; [|discriminate].
    injection Hg as <-. exists (pk p, (v, ver)). split; [reflexivity|].
    apply filter_In. split; [now apply (sget_in s _ _ Hs)|assumption].
Qed.

Theorem mgetall_sorted s pat : sorted s -> StronglySorted blt (map pk (mgetall s pat)).
Proof.
  intros Hs. unfold mgetall. rewrite map_map. simpl.
  apply (sorted_keys_ascending _ (filter_sorted (fun kv => glob pat (fst kv)) s Hs)).
Qed.
