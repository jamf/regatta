From Coq Require Import Lia Permutation.
From Verif Require Import Model.View.

(* Both halves of mergeShardInfo are one operation: keep the current value unless the update ranks strictly higher
   ("leftmost maximum").  That operation is associative without any hypothesis, and a fold of it is described by
   three facts (it is one of the values seen, it is of maximal rank, it is the start value unless something ranks
   higher).  Every statement about merge below is an instance of one of these. *)
Section Pick.
  Context {B : Type} (rank : B -> N).

  Definition pick (c u : B) : B := if rank c <? rank u then u else c.

  Lemma pick_cases c u : pick c u = c /\ rank u <= rank c \/ pick c u = u /\ rank c < rank u.
  Proof. unfold pick. destruct (N.ltb_spec (rank c) (rank u)); [right|left]; split; auto. Qed.

  Lemma pick_low c u : rank u <= rank c -> pick c u = c.
  Proof. destruct (pick_cases c u) as [[E _]|[_ H]]; [trivial|lia]. Qed.

  Lemma pick_ge c u : rank c <= rank (pick c u) /\ rank u <= rank (pick c u).
  Proof. destruct (pick_cases c u) as [[-> H]|[-> H]]; lia. Qed.

  Lemma pick_assoc a b c : pick (pick a b) c = pick a (pick b c).
  Proof.
    destruct (pick_cases a b) as [[Eab Hab]|[Eab Hab]], (pick_cases b c) as [[Ebc Hbc]|[Ebc Hbc]]; rewrite Eab, Ebc.
    - rewrite Eab. apply pick_low. lia.
    - reflexivity.
    - now rewrite Eab.
    - unfold pick. now replace (rank a <? rank c) with true by (symmetry; apply N.ltb_lt; lia).
  Qed.

  (* an operation [op] that acts as [pick] on the component [p] of a larger record *)
  Context {A : Type} (p : A -> B) (op : A -> A -> A).
  Hypothesis p_op : forall c u, p (op c u) = pick (p c) (p u).

  Lemma fold_pick us : forall c, let r := fold_left op us c in
    (exists x, In x (c :: us) /\ p r = p x) /\
    (forall x, In x (c :: us) -> rank (p x) <= rank (p r)) /\
    (rank (p r) <= rank (p c) -> p r = p c).
  Proof.
    induction us as [|u us IH]; intros c; cbn [fold_left].
    - split; [|split].
      + exists c. split; [now left|reflexivity].
      + intros x [<-|[]]. apply N.le_refl.
      + reflexivity.
    - destruct (IH (op c u)) as ((x & Hx & Ex) & Hmax & Hfirst).
      pose proof (Hmax _ (or_introl eq_refl)) as Hm. rewrite p_op in Hm, Hfirst.
      pose proof (pick_ge (p c) (p u)) as [Hc Hu].
      split; [|split].
      + destruct Hx as [<-|Hx].
        * rewrite p_op in Ex. destruct (pick_cases (p c) (p u)) as [[E _]|[E _]]; rewrite E in Ex.
          -- exists c. split; [now left|exact Ex].
          -- exists u. split; [now right; left|exact Ex].
        * exists x. split; [now right; right|exact Ex].
      + intros y [<-|[<-|Hy]].
        * lia.
        * lia.
        * apply Hmax. now right.
      + intros H. rewrite Hfirst by lia. apply pick_low. lia.
  Qed.

  (* rank 0 is exempt: leaderless updates of different terms all rank 0 and need not agree; the third clause of
     [fold_pick] then makes both folds the start value *)
  Definition agree (a b : A) : Prop := rank (p a) = rank (p b) -> rank (p a) <> 0 -> p a = p b.

  Lemma fold_pick_set c us vs :
    (forall x, In x (c :: us) <-> In x (c :: vs)) ->
    (forall a b, In a (c :: us) -> In b (c :: us) -> agree a b) ->
    p (fold_left op us c) = p (fold_left op vs c).
  Proof.
    intros Hset Hag.
    destruct (fold_pick us c) as ((x & Hx & Ex) & M1 & F1), (fold_pick vs c) as ((y & Hy & Ey) & M2 & F2).
    apply Hset in Hy.
    assert (E : rank (p (fold_left op us c)) = rank (p (fold_left op vs c))).
    { apply N.le_antisymm.
      - rewrite Ex. apply M2, Hset, Hx.
      - rewrite Ey. apply M1, Hy. }
    destruct (N.eq_dec (rank (p (fold_left op us c))) 0) as [Z|NZ].
    - rewrite F1, F2 by lia. reflexivity.
    - rewrite Ex, Ey in *. now apply Hag.
  Qed.
End Pick.

Definition consR (a b : N * N) : Prop := snd a = snd b -> fst a = fst b.

Definition lful (p : N * N) : bool := negb (fst p =? noLeader).
Definition consL (a b : N * N) : Prop := lful a = true -> lful b = true -> snd a = snd b -> fst a = fst b.

(* the rank of a (leader, term) pair: none below every term *)
Definition rankL (l : N * N) : N := if lful l then N.succ (snd l) else 0.

Lemma rankL_cases v :
  leader v = noLeader /\ lful (projL v) = false /\ rankL (projL v) = 0 \/
  leader v <> noLeader /\ lful (projL v) = true /\ rankL (projL v) = N.succ (term v).
Proof. unfold rankL, lful, projL; simpl. destruct (N.eqb_spec (leader v) noLeader); simpl; auto. Qed.

Lemma rankL_le v w :
  rankL (projL v) <= rankL (projL w) <-> leader v = noLeader \/ leader w <> noLeader /\ term v <= term w.
Proof.
  destruct (rankL_cases v) as [(? & _ & ->)|(? & _ & ->)];
    destruct (rankL_cases w) as [(? & _ & ->)|(? & _ & ->)]; lia.
Qed.

Lemma mergeR_pick c u : mergeR c u = pick snd c u.
Proof. reflexivity. Qed.

Lemma projR_merge c u : projR (merge c u) = pick snd (projR c) (projR u).
Proof. rewrite <- mergeR_pick. unfold merge, projR; simpl. now destruct (mergeR _ _). Qed.

Lemma mergeL_pick c u : mergeL c u = pick rankL c u.
Proof.
  unfold mergeL, pick, rankL, lful.
  destruct (fst u =? noLeader), (fst c =? noLeader); simpl; try reflexivity.
  - destruct (N.ltb_spec (N.succ (snd c)) 0); [lia|reflexivity].
  - destruct (N.ltb_spec 0 (N.succ (snd u))); [reflexivity|lia].
  - destruct (N.ltb_spec (snd c) (snd u)), (N.ltb_spec (N.succ (snd c)) (N.succ (snd u))); trivial; lia.
Qed.

Lemma projL_merge c u : projL (merge c u) = pick rankL (projL c) (projL u).
Proof. rewrite <- mergeL_pick. unfold merge, projL; simpl. now destruct (mergeL _ _). Qed.

Lemma sview_eq a b : projR a = projR b -> projL a = projL b -> a = b.
Proof. destruct a, b; unfold projR, projL; simpl. congruence. Qed.

Lemma merge_assoc a b c : merge (merge a b) c = merge a (merge b c).
Proof. apply sview_eq; rewrite ?projR_merge, ?projL_merge; apply pick_assoc. Qed.

Lemma merge_zero_r a : merge a zero = a.
Proof. apply sview_eq; rewrite ?projR_merge, ?projL_merge; apply pick_low, N.le_0_l. Qed.

Lemma merge_fold a vs : forall z, merge a (fold_left merge vs z) = fold_left merge vs (merge a z).
Proof. induction vs as [|v vs IH]; intros z; simpl; [reflexivity|]. now rewrite IH, merge_assoc. Qed.

Theorem merge_remote c us vs : merge (fold_left merge us c) (fold_left merge vs zero) = fold_left merge (us ++ vs) c.
Proof. now rewrite merge_fold, merge_zero_r, fold_left_app. Qed.

Definition consistent (vs : list sview) : Prop :=
  forall a b, In a vs -> In b vs -> consR (projR a) (projR b) /\ consL (projL a) (projL b).

Lemma consR_agree a b : consR (projR a) (projR b) -> agree snd projR a b.
Proof. intros H E _. apply injective_projections; [apply H|]; exact E. Qed.

Lemma consL_agree a b : consL (projL a) (projL b) -> agree rankL projL a b.
Proof.
  intros H E NZ.
  destruct (rankL_cases a) as [(_ & _ & Ea)|(_ & La & Ea)]; [congruence|].
  destruct (rankL_cases b) as [(_ & _ & Eb)|(_ & Lb & Eb)]; [lia|].
  assert (T : term a = term b) by lia.
  apply injective_projections; [apply H; assumption|exact T].
Qed.

Theorem fold_set_determined c us vs :
  (forall x, In x (c :: us) <-> In x (c :: vs)) -> consistent (c :: us) ->
  fold_left merge us c = fold_left merge vs c.
Proof.
  intros Hset Hcons. apply sview_eq.
  - apply (fold_pick_set snd projR merge projR_merge); [exact Hset|].
    intros a b Ha Hb. apply consR_agree, (Hcons a b Ha Hb).
  - apply (fold_pick_set rankL projL merge projL_merge); [exact Hset|].
    intros a b Ha Hb. apply consL_agree, (Hcons a b Ha Hb).
Qed.

Theorem fold_dup c us : consistent (c :: us) -> fold_left merge (us ++ us) c = fold_left merge us c.
Proof.
  intros H. symmetry. apply fold_set_determined; [|assumption].
  intros x. simpl. rewrite in_app_iff. tauto.
Qed.

Theorem fold_result c us :
  let r := fold_left merge us c in
  (exists x, In x (c :: us) /\ projR r = projR x) /\ (forall x, In x (c :: us) -> cci x <= cci r) /\
  (exists x, In x (c :: us) /\ projL r = projL x) /\
  (forall x, In x (c :: us) -> leader x <> noLeader -> leader r <> noLeader /\ term x <= term r) /\
  (leader r = noLeader -> projL r = projL c).
Proof.
  intros r.
  destruct (fold_pick snd projR merge projR_merge us c) as (IR & MR & _).
  destruct (fold_pick rankL projL merge projL_merge us c) as (IL & ML & FL). fold r in IR, MR, IL, ML, FL.
  split; [exact IR|]. split; [exact MR|]. split; [exact IL|]. split.
  - intros x Hx Lx. destruct (proj1 (rankL_le x r) (ML x Hx)); [contradiction|assumption].
  - intros Lr. apply FL, rankL_le. now left.
Qed.

Definition okL (v : sview) : Prop := leader v = noLeader -> term v = 0.

Lemma merge_keeps_leader c u :
  leader c <> noLeader -> (leader u = noLeader \/ term u <= term c) ->
  leader (merge c u) = leader c /\ term (merge c u) = term c.
Proof.
  intros Hc Hu. enough (E : projL (merge c u) = projL c) by (injection E; auto).
  rewrite projL_merge. apply pick_low, rankL_le. tauto.
Qed.

Lemma merge_leader_stays c u : leader c <> noLeader -> leader (merge c u) <> noLeader.
Proof. destruct (fold_result c [u]) as (_ & _ & _ & H & _). intros Hc. now apply (H c); [left|]. Qed.

Lemma fold_term_monotone c us : okL c -> term c <= term (fold_left merge us c) /\ okL (fold_left merge us c).
Proof.
  intros Hc. destruct (fold_result c us) as (_ & _ & _ & Hmax & Hnone). unfold okL in *. split.
  - destruct (N.eq_dec (leader c) noLeader) as [Lc|Lc].
    + rewrite (Hc Lc). apply N.le_0_l.
    + now apply (Hmax c); [left|].
  - intros Lr. injection (Hnone Lr) as EL ET. rewrite ET. apply Hc. now rewrite <- EL.
Qed.

Definition for_shard (id : N) (us : list (N * sview)) : list sview :=
  map snd (filter (fun u => fst u =? id) us).

Lemma update_shard us : forall f id, update f us id = fold_left merge (for_shard id us) (f id).
Proof.
  unfold update, for_shard.
  induction us as [|u us IH]; intros f id; cbn [fold_left filter]; [reflexivity|].
  rewrite IH. unfold update1, upd.
  rewrite (N.eqb_sym (fst u) id).
  destruct (N.eqb_spec id (fst u)) as [->|Hne]; reflexivity.
Qed.

Lemma in_for_shard id us x : In x (for_shard id us) <-> In (id, x) us.
Proof.
  unfold for_shard. rewrite in_map_iff. split.
  - intros ([i y] & <- & H). apply filter_In in H. destruct H as [H E]. apply N.eqb_eq in E. simpl in E. now subst i.
  - intros H. exists (id, x). split; [reflexivity|]. apply filter_In. split; [exact H|apply N.eqb_refl].
Qed.

Theorem update_set_determined f us vs id :
  (forall x, In (id, x) us <-> In (id, x) vs) -> consistent (f id :: for_shard id us) -> update f us id = update f vs id.
Proof.
  intros Hset Hc. rewrite !update_shard. apply fold_set_determined; [|exact Hc].
  intros x. simpl. now rewrite !in_for_shard, Hset.
Qed.

Theorem update_order_independent f us vs id :
  Permutation us vs -> consistent (f id :: for_shard id us) -> update f us id = update f vs id.
Proof.
  intros Hp. apply update_set_determined. intros x. split; apply Permutation_in.
  - exact Hp.
  - symmetry. exact Hp.
Qed.

Theorem update_split f us vs id : update (update f us) vs id = update f (us ++ vs) id.
Proof. unfold update. now rewrite fold_left_app. Qed.

Theorem events_fold (events : list (list (N * sview))) : forall f id,
  fold_left update events f id = update f (concat events) id.
Proof.
  induction events as [|e r IH]; intros f id; [reflexivity|].
  cbn [fold_left concat]. rewrite IH. apply update_split.
Qed.
