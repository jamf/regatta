(* The cached log reader answers like the plain one (C06: "the optional log cache never changes this answer, apart from
   where a size limit cuts it"): if the cache buffer is one index range of the log above the marker, every answer of
   Cached.QueryRaftLog is exact and the buffer is again such a range - for every query, also with an end older than what
   the cache has already seen.  All of this is about one value of the log: how the invariant fares when the log grows or
   is compacted (Cached.LogCompacted drops the cache) is not stated. *)
From Coq Require Import Lia.
From Verif Require Import Model.LogReader Proofs.LogReaderFacts.

Lemma largest_nil cs : largest {| buf := []; csize := cs |} = 0.
Proof. reflexivity. Qed.

Lemma largest_last c : largest c = match buf c with [] => 0 | e :: _ => eidx (last (buf c) e) end.
Proof.
  unfold largest. destruct (buf c) as [|e t]; [reflexivity|].
  rewrite (@app_removelast_last _ (e :: t) e) at 1 by discriminate. now rewrite rev_app_distr.
Qed.

(* the two trimmings are a skipn by a truncated difference *)
Lemma make_room_buf c es : buf (make_room_and_append c es) = skipn (length es + length (buf c) - csize c) (buf c) ++ es.
Proof.
  unfold make_room_and_append. cbn [buf]. destruct (Nat.ltb_spec (csize c) (length es + length (buf c))) as [H|H]; [reflexivity|].
  now rewrite (proj2 (Nat.sub_0_le _ _) H).
Qed.

Lemma cput_cons c e t : let es := skipn (length (e :: t) - csize c) (e :: t) in
  cput c (e :: t) =
    if largest c =? 0 then make_room_and_append c es
    else let i := find_index (fun x => largest c <? x) es in
         if (i =? length es)%nat then c else make_room_and_append c (skipn i es).
Proof.
  unfold cput. destruct (Nat.ltb_spec (csize c) (length (e :: t))) as [H|H]; [reflexivity|].
  now rewrite (proj2 (Nat.sub_0_le _ _) H).
Qed.

Lemma find_index_low f B k : consec k B -> f (k + 1) = true -> find_index f B = 0%nat.
Proof. destruct B as [|e r]; [reflexivity|]. intros [He _] H. cbn. now rewrite He, H. Qed.

(* cache.put trims the new entries to csize and then the buffer to the room that is left: what stays is the last csize
   entries of the buffer followed by the new ones *)
Lemma make_room_last c es :
  buf (make_room_and_append c (skipn (length es - csize c) es)) = skipn (length (buf c ++ es) - csize c) (buf c ++ es).
Proof.
  rewrite make_room_buf, skipn_app, skipn_length, app_length. f_equal; [|f_equal; lia].
  destruct (Nat.le_gt_cases (length es) (csize c)); [f_equal; lia|].
  now rewrite !skipn_all2 by lia.
Qed.

(* for new entries that continue the buffer, or a buffer that cache.put takes for empty; when csize is 0 and the buffer is
   not empty, nothing is put *)
Lemma cput_last c es : es <> [] -> largest c = 0 \/ consec (largest c) es ->
  cput c es = c \/ buf (cput c es) = skipn (length (buf c ++ es) - csize c) (buf c ++ es).
Proof.
  intros Hne Hcont. destruct es as [|e t]; [congruence|]. rewrite cput_cons. cbv zeta.
  destruct (N.eqb_spec (largest c) 0) as [_|Hl]; [right; apply make_room_last|].
  destruct Hcont as [E0|Hc]; [congruence|].
  rewrite (find_index_low _ _ _ (consec_skipn _ _ (length (e :: t) - csize c) Hc)) by (apply N.ltb_lt; lia).
  destruct (0 =? _)%nat; [now left|right; apply make_room_last].
Qed.

Lemma slice_find B : forall k F L, consec k B -> F <= L ->
  slice B (find_index (fun x => F <=? x) B) (find_index (fun x => L <=? x) B) = filter (inr_b F L) B.
Proof.
  induction B as [|e r IH]; intros k F L Hc HFL; [reflexivity|]. destruct Hc as [He Hc].
  specialize (IH _ F L Hc HFL). cbn [find_index filter]. unfold inr_b at 1. rewrite He.
  destruct (N.leb_spec F (k + 1)) as [H1|H1]; [|rewrite (proj2 (N.leb_gt L (k + 1))) by lia; exact IH].
  rewrite (find_index_low _ r (k + 1) Hc) in IH by (apply N.leb_le; lia).
  destruct (N.ltb_spec (k + 1) L) as [H2|H2].
  - rewrite (proj2 (N.leb_gt L (k + 1))) by assumption. cbn [andb]. rewrite <- IH. unfold slice. now rewrite !Nat.sub_0_r.
  - rewrite (proj2 (N.leb_le L (k + 1))) by assumption. rewrite (find_index_low _ r (k + 1) Hc) in IH by (apply N.leb_le; lia). exact IH.
Qed.

Lemma is_set_true a b : 0 < a -> a < b -> is_set {| rfirst := a; rlast := b |} = true.
Proof.
  intros Ha Hb. unfold is_set. cbn. destruct (N.eqb_spec a 0); [lia|]. destruct (N.eqb_spec b 0); [lia|]. reflexivity.
Qed.

(* the model compares last indices (next index - 1); for indices above 0 that is comparing the next indices *)
Lemma eqb_pred x y : 0 < x -> 0 < y -> (x - 1 =? y - 1) = (x =? y).
Proof. intros Hx Hy. destruct (N.eqb_spec x y), (N.eqb_spec (x - 1) (y - 1)); reflexivity || lia. Qed.

Section Cached.
  Variable cut : N -> N -> N -> nat.
  Variable l : rlog.
  Hypothesis Hwf : wf_log l.
  Notation R := (range_entries l).

  (* the cache buffer is the index range [a,z) of the log, above the marker (empty when z <= a) *)
  Definition buf_range (c : cache) (a z : N) : Prop := marker l < a /\ z <= llast l + 1 /\ buf c = R a z.
  Definition CacheInv (c : cache) : Prop := exists a z, buf_range c a z.

  Lemma buf_range_cons c a z : buf_range c a z -> a < z -> exists e t, buf c = e :: t /\ smallest c = a /\ largest c = z - 1.
  Proof.
    intros (Ha & Hz & E) Hlt. destruct (range_cons l Hwf a z Ha (conj Hlt Hz)) as (e & t & E').
    exists e, t. rewrite largest_last. unfold smallest. rewrite E, E'. repeat split.
    - exact (range_hd l Hwf Ha E').
    - rewrite <- E'. exact (range_last l Hwf a z e Ha (conj Hlt Hz)).
  Qed.

  (* cache.get on a non-empty buffer: a miss before it, a miss behind it, or the cached part of [F,L) with what to read
     before and after it *)
  Lemma cget_cases c a z F L : buf_range c a z -> a < z -> F < L ->
    cget c {| rfirst := F; rlast := L |} =
      if L <=? a then ([], {| rfirst := F; rlast := L |}, rzero)
      else if z <=? F then ([], rzero, {| rfirst := F; rlast := L |})
      else (R (N.max F a) (N.min L z),
            (if F <? a then {| rfirst := F; rlast := a |} else rzero),
            (if z <? L then {| rfirst := z; rlast := L |} else rzero)).
  Proof.
    intros Hc Hlt HFL. unfold cget, cget_gen. cbn [rfirst rlast].
    destruct (buf_range_cons c a z Hc Hlt) as (e0 & t0 & E0 & -> & ->). rewrite E0 at 1. cbv beta iota zeta.
    destruct Hc as (Ha & Hz & ->).
    (* the model's test is largest < F; stated with z = largest + 1, no proof that uses it carries a subtraction *)
    replace (z - 1 <? F) with (z <=? F) by (destruct (N.leb_spec z F), (N.ltb_spec (z - 1) F); reflexivity || lia).
    destruct (N.leb_spec L a) as [H1|H1]; [reflexivity|]. destruct (N.leb_spec z F) as [H2|H2]; [reflexivity|].
    rewrite (slice_find _ (a - 1)), range_filter by (apply (range_consecutive l Hwf), Ha || lia).
    destruct (range_cons l Hwf (N.max F a) (N.min L z)) as (e1 & t1 & E1); [lia..|]. rewrite E1 at 1. cbv beta iota.
    now rewrite N.sub_add by lia.
  Qed.

  Lemma buf_empty c a z : buf_range c a z -> z <= a -> buf c = [].
  Proof. intros (Ha & Hz & ->) Hem. now apply (range_nil l Hwf). Qed.

  (* a put that starts where the cached range ends: of the range [a,y) the last csize entries stay *)
  Lemma cput_range c a x y : buf_range c a x -> a <= x -> x < y <= llast l + 1 -> CacheInv (cput c (R x y)).
  Proof.
    intros Hc Hax Hxy. pose proof Hc as (Ha & _ & Eb).
    assert (Hx : marker l < x) by lia.
    destruct (range_cons l Hwf x y Hx Hxy) as (e & t & E).
    assert (Hne : R x y <> []) by (rewrite E; discriminate).
    assert (Hcont : largest c = 0 \/ consec (largest c) (R x y)).
    { destruct (proj1 (N.lt_eq_cases a x) Hax) as [Hlt| ->].
      - right. destruct (buf_range_cons c a x Hc Hlt) as (_ & _ & _ & _ & ->). exact (range_consecutive l Hwf x y Hx).
      - left. unfold largest. now rewrite (buf_empty c x x Hc (N.le_refl x)). }
    destruct (cput_last c _ Hne Hcont) as [->|E'].
    - now exists a, x.
    - exists (a + N.of_nat (length (buf c ++ R x y) - csize c)), y. split; [lia|]. split; [apply Hxy|].
      rewrite E', Eb, (range_app l Hwf) by (assumption || lia). now apply (range_skipn l Hwf).
  Qed.

  Lemma read_log_range F H mx : marker l < F -> F < H <= llast l + 1 ->
    exists F' e t, F < F' <= H /\ read_log cut l {| rfirst := F; rlast := H |} mx = inl (R F F') /\ R F F' = e :: t.
  Proof.
    intros HF HH. unfold read_log, lib_entries. cbn [rfirst rlast].
    rewrite (proj2 (N.eqb_neq _ _)), (proj2 (N.ltb_ge _ _)), (proj2 (N.ltb_ge _ _)), (range_firstn l Hwf) by lia.
    set (F' := N.min _ H). assert (HF' : F < F' <= H) by lia. clearbody F'.
    destruct (range_cons l Hwf F F') as (e & t & E); [lia..|]. now exists F', e, t.
  Qed.
  Lemma read_log_ahead F H mx : F <= marker l -> read_log cut l {| rfirst := F; rlast := H |} mx = inr ErrLogAhead.
  Proof.
    intros HF. unfold read_log, llast. cbn [rfirst rlast].
    now rewrite (proj2 (N.eqb_neq _ _)), (proj2 (N.ltb_ge _ _)), (proj2 (N.ltb_lt _ _)) by lia.
  Qed.
  Lemma fix_size_range F H mx : marker l < F -> F < H -> exists F', F < F' <= H /\ fix_size (R F H) mx = R F F'.
  Proof.
    intros HF HH. unfold fix_size, fix_size_gen. rewrite (range_firstn l Hwf) by assumption.
    eexists. split; [|reflexivity]. lia.
  Qed.

  Lemma exact_range applied F F' : marker l < F -> F < F' <= applied + 1 -> exact_answer l applied F (inl (R F F')).
  Proof.
    intros HF HF'. unfold exact_answer. rewrite (proj2 (N.eqb_neq _ _)), (proj2 (N.leb_gt _ _)) by lia.
    exists (N.to_nat (F' - F)). split; [lia|]. rewrite (range_firstn l Hwf) by assumption. do 2 f_equal. lia.
  Qed.

  Lemma cget_nil c r : buf c = [] -> cget c r = ([], r, rzero).
  Proof. unfold cget, cget_gen. now intros ->. Qed.

  Lemma query_empty c F mx : cached_query cut c l {| rfirst := F; rlast := F |} mx = (inl [], c).
  Proof. unfold cached_query, cached_query_gen, cached_query_gen2. cbn [rfirst rlast]. now rewrite N.eqb_refl. Qed.

  (* Cached.QueryRaftLog by the branch it takes, given what cache.get returned: the range before the cached entries is
     read (and lies below the marker, or inside the log), the range behind them is read, or the cache answers alone *)
  Section Branches.
    Context {c : cache} {r : lrange} (mx : N) {ces : list lentry}.
    Hypothesis Hr : rfirst r <> rlast r.

    Lemma query_ahead {F H app} : cget c r = (ces, {| rfirst := F; rlast := H |}, app) -> 1 <= F <= marker l -> F < H ->
      cached_query cut c l r mx = (inr ErrLogAhead, c).
    Proof.
      intros Hg HF HH. unfold cached_query, cached_query_gen, cached_query_gen2. fold (cget c r).
      now rewrite (proj2 (N.eqb_neq _ _) Hr), Hg, is_set_true, read_log_ahead by (apply HF || lia).
    Qed.

    Lemma query_before {F H app} : cget c r = (ces, {| rfirst := F; rlast := H |}, app) ->
      marker l < F -> F < H <= llast l + 1 ->
      exists F', F < F' <= H /\ cached_query cut c l r mx =
        if match ces with ce :: _ => F' - 1 =? eidx ce - 1 | [] => false end
        then (inl (fix_size (R F F' ++ ces) mx), c)
        else (inl (R F F'), if (length (buf c) =? 0)%nat then cput c (R F F') else c).
    Proof.
      intros Hg HF HH. destruct (read_log_range F H mx HF HH) as (F' & e0 & t0 & HF' & Hrd & E0).
      exists F'. split; [exact HF'|]. unfold cached_query, cached_query_gen, cached_query_gen2. fold (cget c r).
      rewrite (proj2 (N.eqb_neq _ _) Hr), Hg, is_set_true, Hrd by lia.
      rewrite <- (range_last l Hwf F F' e0) by lia. rewrite E0.
      destruct ces as [|ce ct]; [reflexivity|]. now destruct (_ =? _).
    Qed.

    Lemma query_behind {x L} : cget c r = (ces, rzero, {| rfirst := x; rlast := L |}) ->
      marker l < x -> x < L <= llast l + 1 ->
      exists x', x < x' <= L /\ cached_query cut c l r mx =
        match ces with
        | _ :: _ => (inl (fix_size (ces ++ R x x') mx), cput c (R x x'))
        | [] => (inl (R x x'), if x - 1 =? largest c then cput c (R x x') else c)
        end.
    Proof.
      intros Hg Hx HL. destruct (read_log_range x L mx Hx HL) as (x' & e0 & t0 & Hx' & Hrd & E0).
      exists x'. split; [exact Hx'|]. unfold cached_query, cached_query_gen, cached_query_gen2. fold (cget c r).
      rewrite (proj2 (N.eqb_neq _ _) Hr), Hg, is_set_true, Hrd by lia. change (is_set rzero) with false.
      rewrite E0, (range_hd l Hwf Hx E0). reflexivity.
    Qed.

    Lemma query_hit : cget c r = (ces, rzero, rzero) -> cached_query cut c l r mx = (inl (fix_size ces mx), c).
    Proof.
      intros Hg. unfold cached_query, cached_query_gen, cached_query_gen2. fold (cget c r).
      now rewrite (proj2 (N.eqb_neq _ _) Hr), Hg.
    Qed.
  End Branches.

  (* a request below the compaction point: cached entries are all above the marker, so whatever the cache holds, a
     range that starts at F is read first, and the log refuses it *)
  Lemma cached_ahead c F L mx : CacheInv c -> 1 <= F <= marker l -> F < L ->
    cached_query cut c l {| rfirst := F; rlast := L |} mx = (inr ErrLogAhead, c).
  Proof.
    intros (a & z & Hc) HF HL. set (r := {| rfirst := F; rlast := L |}).
    assert (Hr : rfirst r <> rlast r) by (cbn; lia).
    destruct (N.le_gt_cases z a) as [Hem|Hlt].
    - apply (query_ahead mx Hr (cget_nil c r (buf_empty c a z Hc Hem))); assumption.
    - generalize (cget_cases c a z F L Hc Hlt HL). destruct Hc as (Ha & _). destruct (N.leb_spec L a).
      + intros Hg. now apply (query_ahead mx Hr Hg).
      + rewrite (proj2 (N.leb_gt z F)), (proj2 (N.ltb_lt F a)) by lia. intros Hg.
        apply (query_ahead mx Hr Hg); [assumption|lia].
  Qed.

  (* what a request inside the log is answered with: a non-empty range from F, the cache again a range of the log *)
  Definition data_answer (F L : N) (p : (list lentry + qerr) * cache) : Prop :=
    exists F', F < F' <= L /\ fst p = inl (R F F') /\ CacheInv (snd p).

  Lemma data_answer_range F L F' c' : F < F' <= L -> CacheInv c' -> data_answer F L (inl (R F F'), c').
  Proof. intros H Hc'. now exists F'. Qed.

  Lemma data_answer_fix F L H mx c' : marker l < F -> F < H <= L -> CacheInv c' -> data_answer F L (inl (fix_size (R F H) mx), c').
  Proof.
    intros HF HH Hc'. destruct (fix_size_range F H mx HF (proj1 HH)) as (F' & HF' & ->).
    apply data_answer_range; [lia|assumption].
  Qed.

  Lemma cached_data c F L mx : CacheInv c -> marker l < F -> F < L <= llast l + 1 ->
    data_answer F L (cached_query cut c l {| rfirst := F; rlast := L |} mx).
  Proof.
    intros (a & z & Hc) HF HL. set (r := {| rfirst := F; rlast := L |}).
    assert (Hr : rfirst r <> rlast r) by apply N.lt_neq, HL.
    assert (Hkeep : CacheInv c) by now exists a, z.
    destruct (N.le_gt_cases z a) as [Hem|Hlt].
    { (* empty cache: everything comes from the log, and is cached *)
      pose proof (buf_empty c a z Hc Hem) as Eb.
      destruct (query_before mx Hr (cget_nil c r Eb) HF HL) as (F' & HF' & ->). rewrite Eb.
      apply data_answer_range; [exact HF'|]. apply (cput_range c F F); [|apply N.le_refl|lia].
      split; [exact HF|]. split; [lia|]. now rewrite Eb, (range_nil l Hwf). }
    pose proof Hc as (Ha & Hz & _). destruct (buf_range_cons c a z Hc Hlt) as (e0 & t0 & Eb & _).
    generalize (cget_cases c a z F L Hc Hlt (proj1 HL)). fold r.
    destruct (N.leb_spec L a) as [HLa|HLa]; [|destruct (N.leb_spec z F) as [HzF|HzF]].
    - (* the whole range lies before the cache *)
      intros Hg. destruct (query_before mx Hr Hg HF HL) as (F' & HF' & ->).
      rewrite Eb. now apply data_answer_range.
    - (* the whole range lies behind the cache; what was read is cached if it continues the cached range *)
      intros Hg. destruct (query_behind mx Hr Hg HF HL) as (F' & HF' & ->).
      destruct (buf_range_cons c a z Hc Hlt) as (_ & _ & _ & _ & ->). apply data_answer_range; [exact HF'|].
      rewrite eqb_pred by lia. destruct (N.eqb_spec F z) as [->|_]; [|assumption].
      apply (cput_range c a z _ Hc); lia.
    - destruct (N.ltb_spec F a) as [HFa|HFa]; [|destruct (N.ltb_spec z L) as [HzL|HzL]].
      + (* a gap before the cache is read; the cached part is [a,H) *)
        rewrite (N.max_r F a) by lia. set (H := N.min L z).
        assert (HH : a < H /\ H <= L) by (split; [now apply N.min_glb_lt|apply N.le_min_l]).
        clearbody H. intros Hg.
        destruct (query_before mx Hr Hg HF) as (F' & HF' & ->); [lia|].
        destruct (range_cons l Hwf a H Ha) as (ce & ct & Ec); [lia|].
        rewrite Eb, Ec, (range_hd l Hwf Ha Ec), eqb_pred by lia.
        destruct (N.eqb_spec F' a) as [->|Ej].
        * (* the gap was read completely: log entries and cached entries join *)
          rewrite <- Ec, (range_app l Hwf F a H HF) by lia.
          apply data_answer_fix; [assumption|lia|assumption].
        * apply data_answer_range; [lia|assumption].
      + (* the cached part is [F,z); entries behind it are read, and cached *)
        rewrite (N.max_l F a HFa), (N.min_r L z) by lia. intros Hg.
        destruct (query_behind mx Hr Hg) as (x' & Hx' & ->); [lia..|].
        destruct (range_cons l Hwf F z HF (conj HzF Hz)) as (ce & ct & Ec).
        rewrite Ec. cbv iota. rewrite <- Ec, (range_app l Hwf F z x' HF) by lia. apply data_answer_fix; [assumption|lia|].
        apply (cput_range c a z _ Hc); lia.
      + (* the whole range is cached *)
        rewrite (N.max_l F a HFa), (N.min_l L z HzL). intros Hg.
        rewrite (query_hit mx Hr Hg). apply data_answer_fix; [assumption|lia|assumption].
  Qed.
End Cached.

(* the invariant in terms of the log itself: the buffer is a contiguous slice of the log's entries *)
Definition cache_ok (l : rlog) (c : cache) : Prop :=
  buf c = [] \/ exists j k, buf c = firstn k (skipn j (lents l)) /\ (0 < k)%nat /\ (j + k <= length (lents l))%nat.

Lemma cache_ok_inv l c : wf_log l -> (cache_ok l c <-> CacheInv l c).
Proof.
  intros Hwf. unfold cache_ok, CacheInv, buf_range, llast. split.
  - intros [H|(j & k & Hb & Hk & Hjk)].
    + exists (marker l + 1), (marker l + 1). rewrite (range_nil l Hwf) by lia.
      split; [lia|]. split; [lia|assumption].
    + exists (marker l + 1 + N.of_nat j), (marker l + 1 + N.of_nat j + N.of_nat k). rewrite (range_slice l Hwf) by lia.
      split; [lia|]. split; [lia|]. rewrite Hb. f_equal; [|f_equal]; lia.
  - intros (a & z & Ha & Hz & Hb). rewrite (range_slice l Hwf) in Hb by assumption.
    destruct (N.le_gt_cases z a) as [H|H].
    + left. now rewrite Hb, (proj2 (N.sub_0_le z a)).
    + right. eexists _, _. split; [exact Hb|lia].
Qed.

Theorem cached_answer_exact cut (l : rlog) c applied F mx :
  wf_log l -> cache_ok l c -> 1 <= F -> marker l <= applied -> applied <= llast l ->
  (marker l < F <= applied + 1 \/ F <= marker l) ->
  exact_answer l applied F (fst (cached_query cut c l {| rfirst := F; rlast := applied + 1 |} mx)) /\
  cache_ok l (snd (cached_query cut c l {| rfirst := F; rlast := applied + 1 |} mx)).
Proof.
  intros Hwf Hc H1 Hm Ha HF. rewrite !(cache_ok_inv l _ Hwf) in *. destruct HF as [HF|HF].
  - destruct (N.eq_dec F (applied + 1)) as [->|HFL].
    + rewrite (query_empty cut l). unfold exact_answer. now rewrite N.eqb_refl.
    + destruct (cached_data cut l Hwf c F (applied + 1) mx Hc) as (F' & HF' & -> & Hc'); [lia..|].
      split; [|exact Hc']. apply (exact_range l Hwf); lia.
  - rewrite (cached_ahead cut l Hwf c F) by (assumption || lia). split; [|exact Hc].
    unfold exact_answer. now rewrite (proj2 (N.eqb_neq _ _)), (proj2 (N.leb_le _ _)) by lia.
Qed.
