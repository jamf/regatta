(* util/heap: the ORDER invariant of the slice-backed binary heap.  [heap_ok l]: no element is smaller than its parent
   ((i-1)/2).  Push, Pop, New (Floyd's heapify) establish / preserve it, and it makes the root a minimum - which is what
   the notification queue needs to release every waiter whose revision is reached (C11). *)
From Coq Require Import Lia.
From Verif Require Import Model.Heap Proofs.HeapFacts.

Section Order.
  Variable A : Type.
  Variable less : A -> A -> bool.
  Variable dflt : A.
  Notation hnth := (hnth A dflt).
  Definition le (x y : A) : bool := negb (less y x).
  (* [less] is the strict part of a total preorder *)
  Hypothesis le_trans : forall x y z, le x y = true -> le y z = true -> le x z = true.
  Hypothesis less_le : forall x y, less x y = true -> le x y = true.

  Lemma hle_refl x : le x x = true.
  Proof.
    unfold le. destruct (less x x) eqn:E; [|reflexivity].
    pose proof (less_le x x E) as H. unfold le in H. rewrite E in H. discriminate.
  Qed.

  Lemma not_less_le x y : less x y = false -> le y x = true.
  Proof. unfold le. now intros ->. Qed.

  Definition par (i : nat) : nat := ((i - 1) / 2)%nat.

  (* All the index arithmetic of this file: with this fact in the context [par k] is an atom for lia and every goal is
     linear.  (Unfolding [par] in front of lia instead costs a division elimination per call.) *)
  Lemma par_child k : (0 < k)%nat -> k = (2 * par k + 1)%nat \/ k = (2 * par k + 2)%nat.
  Proof.
    intros H. unfold par. pose proof (Nat.div_mod (k - 1) 2 ltac:(discriminate)) as E.
    pose proof (Nat.mod_upper_bound (k - 1) 2 ltac:(discriminate)). lia.
  Qed.

  Lemma par_lt i : (0 < i)%nat -> (par i < i)%nat.
  Proof. intros H. pose proof (par_child i H). lia. Qed.

  Definition heap_at (l : list A) (n : nat) : Prop :=
    forall i, (0 < i < n)%nat -> le (hnth l (par i)) (hnth l i) = true.
  Definition heap_ok (l : list A) : Prop := heap_at l (length l).

  (* ... as far as the edges whose parent has index lo or more are concerned (lo = 0: all) *)
  Definition heap_from (lo : nat) (l : list A) (n : nat) : Prop :=
    forall k, (0 < k < n)%nat -> (lo <= par k)%nat -> le (hnth l (par k)) (hnth l k) = true.

  Lemma heap_from_0 l n : heap_from 0 l n -> heap_at l n.
  Proof. intros H k Hk. apply H; [exact Hk|lia]. Qed.

  (* up: the heap property may fail only between j and its parent, whose other descendants are in order with it *)
  Lemma up_ok fuel : forall l j, (j < length l)%nat -> (j <= fuel)%nat ->
    (forall k, (0 < k < length l)%nat -> k <> j -> le (hnth l (par k)) (hnth l k) = true) ->
    (forall k, (0 < k < length l)%nat -> par k = j -> (0 < j)%nat -> le (hnth l (par j)) (hnth l k) = true) ->
    heap_ok (up A less dflt fuel l j).
  Proof.
    induction fuel as [|f IH]; intros l j Hj Hf Ha Hb; cbn [up].
    - intros k Hk. apply Ha; lia.
    - fold (par j). destruct (Nat.eqb_spec (par j) j) as [E|E]; cbn [orb].
      { intros k Hk. apply Ha; [exact Hk|]. intros Ek. pose proof (par_lt j). lia. }
      assert (Hj0 : (0 < j)%nat) by (destruct j; [exfalso; now apply E|lia]).
      pose proof (par_lt j Hj0) as Hp.
      destruct (less (hnth l j) (hnth l (par j))) eqn:El; cbn [negb].
      2:{ intros k Hk. destruct (Nat.eq_dec k j) as [->|Hne]; [now apply not_less_le|now apply Ha]. }
      (* l[j] < l[par j] are exchanged; k ranges over the edges (par k, k) *)
      pose proof (hnth_swap_l A dflt l (par j) j ltac:(lia)) as Sp. pose proof (hnth_swap_r A dflt l (par j) j Hj) as Sj.
      apply IH; rewrite ?swap_length; try lia.
      + intros k Hk Hkp. pose proof (par_lt k (proj1 Hk)).
        destruct (Nat.eq_dec k j) as [->|Hkj]; [rewrite Sp, Sj; now apply less_le|].
        rewrite (hnth_swap_other _ _ _ _ _ k) by assumption.
        destruct (Nat.eq_dec (par k) j) as [Ekj|Ekj].
        { (* a child of j: its parent now holds the old l[par j] *)
          rewrite Ekj, Sj. now apply Hb. }
        destruct (Nat.eq_dec (par k) (par j)) as [Ekp|Ekp].
        { (* the sibling of j: its parent now holds the old l[j] *)
          rewrite Ekp, Sp. apply le_trans with (hnth l (par j)); [now apply less_le|].
          rewrite <- Ekp. now apply Ha. }
        rewrite hnth_swap_other by assumption. now apply Ha.
      + (* the children of par j against its parent *)
        intros k Hk Hkp Hp0. pose proof (par_lt (par j) Hp0). pose proof (par_lt k (proj1 Hk)).
        assert (Hgp : le (hnth l (par (par j))) (hnth l (par j)) = true) by (apply Ha; lia).
        rewrite (hnth_swap_other _ _ _ _ _ (par (par j))) by lia.
        destruct (Nat.eq_dec k j) as [->|Hkj]; [now rewrite Sj|].
        rewrite hnth_swap_other by lia. apply le_trans with (hnth l (par j)); [exact Hgp|].
        rewrite <- Hkp. now apply Ha.
  Qed.

  Theorem push_ok l x : heap_ok l -> heap_ok (push A less dflt l x).
  Proof.
    intros H. unfold push. rewrite app_length. cbn [length]. apply up_ok; rewrite ?app_length; cbn [length]; try lia.
    - intros k Hk Hne. pose proof (par_lt k (proj1 Hk)). unfold Heap.hnth. rewrite !app_nth1 by lia. apply H. lia.
    - intros k Hk Hkp. pose proof (par_lt k (proj1 Hk)). lia.
  Qed.

  Lemma min_child l i n : (2 * i + 1 < n)%nat ->
    par (child A less dflt l i n) = i /\
    forall k, (0 < k < n)%nat -> par k = i -> le (hnth l (child A less dflt l i n)) (hnth l k) = true.
  Proof.
    intros Hn. split.
    { pose proof (child_range A less dflt l i n Hn). pose proof (par_child (child A less dflt l i n)). lia. }
    intros k Hk Hki. pose proof (par_child k (proj1 Hk)).
    assert (Ek : k = (2 * i + 1)%nat \/ k = (2 * i + 1 + 1)%nat /\ (2 * i + 1 + 1 <? n)%nat = true)
      by (destruct (Nat.ltb_spec (2 * i + 1 + 1) n); lia).
    unfold child. destruct Ek as [->|[-> ->]]; cbn [andb].
    - destruct (_ && _)%bool eqn:E; [|apply hle_refl]. apply less_le. now destruct (_ <? _)%nat.
    - destruct (less _ _) eqn:E; [apply hle_refl|now apply not_less_le].
  Qed.

  (* down: within the first n slots and among the edges from lo on, the heap property may fail only between i and
     its children, which are in order with its parent (lo = 0: the whole heap, Pop; lo = i: the subtrees from i on, New) *)
  Lemma down_go_ok fuel : forall l i n lo, (n <= length l)%nat -> (i < n)%nat -> (n <= i + fuel)%nat ->
    (forall k, (0 < k < n)%nat -> (lo <= par k)%nat -> par k <> i -> le (hnth l (par k)) (hnth l k) = true) ->
    (forall k, (0 < k < n)%nat -> par k = i -> (0 < i)%nat -> (lo <= par i)%nat -> le (hnth l (par i)) (hnth l k) = true) ->
    heap_from lo (fst (down_go A less dflt fuel l i n)) n.
  Proof.
    induction fuel as [|f IH]; intros l i n lo Hn Hi Hf Ha Hb; [lia|]. rewrite down_go_S.
    destruct (Nat.leb_spec n (2 * i + 1)) as [Hc|Hc].
    { intros k Hk Hlo. apply Ha; [assumption..|]. pose proof (par_child k (proj1 Hk)). lia. }
    destruct (min_child l i n Hc) as (Hpj & Hmin). pose proof (child_range A less dflt l i n Hc) as Hjn.
    set (j := child A less dflt l i n) in *. clearbody j.
    destruct (less (hnth l j) (hnth l i)) eqn:El; cbn [negb fst].
    2:{ (* i is not larger than its smaller child *)
        intros k Hk Hlo. destruct (Nat.eq_dec (par k) i) as [Hpk|Hpk]; [|now apply Ha].
        rewrite Hpk. apply le_trans with (hnth l j); [now apply not_less_le|now apply Hmin]. }
    (* l[j] < l[i] are exchanged; k ranges over the edges (par k, k) *)
    pose proof (hnth_swap_l A dflt l i j ltac:(lia)) as Si. pose proof (hnth_swap_r A dflt l i j ltac:(lia)) as Sj.
    apply IH; rewrite ?swap_length; try lia.
    - intros k Hk Hlo Hkj. pose proof (par_lt k (proj1 Hk)).
      destruct (Nat.eq_dec k j) as [->|Hne]; [rewrite Hpj, Si, Sj; now apply less_le|].
      destruct (Nat.eq_dec (par k) i) as [Eki|Eki].
      { (* the other child of i: its parent now holds the old l[j] *)
        rewrite Eki, Si, hnth_swap_other by lia. now apply Hmin. }
      rewrite (hnth_swap_other _ _ _ _ _ (par k)) by assumption.
      destruct (Nat.eq_dec k i) as [->|Hki]; [|rewrite hnth_swap_other by assumption; now apply Ha].
      (* i itself now holds the old l[j] *)
      rewrite Si. apply Hb; [lia|assumption|lia|assumption].
    - (* the children of j against i, which holds the old l[j] *)
      intros k Hk Hkj _ Hlo. pose proof (par_lt k (proj1 Hk)).
      rewrite Hpj, Si, hnth_swap_other by lia. rewrite <- Hkj. apply Ha; [assumption| |]; lia.
  Qed.

  Theorem peek_min l : heap_ok l -> forall i, (i < length l)%nat -> le (hnth l 0) (hnth l i) = true.
  Proof.
    intros H i. induction i as [i IH] using lt_wf_ind. intros Hi. destruct i as [|i]; [apply hle_refl|].
    pose proof (par_lt (S i) ltac:(lia)).
    apply le_trans with (hnth l (par (S i))); [apply IH; lia|]. apply H. lia.
  Qed.

  Lemma hnth_firstn l n k : (k < n)%nat -> hnth (firstn n l) k = hnth l k.
  Proof.
    unfold Heap.hnth. revert n k.
    induction l as [|x l IH]; intros [|n] [|k] H; cbn; try lia; try reflexivity.
    apply IH. lia.
  Qed.

  Lemma heap_at_firstn l n : (n <= length l)%nat -> heap_at l n -> heap_ok (firstn n l).
  Proof.
    intros Hn H k. rewrite firstn_length_le by exact Hn. intros Hk. pose proof (par_lt k (proj1 Hk)).
    rewrite !hnth_firstn by lia. now apply H.
  Qed.

  Theorem pop_ok l x l' : heap_ok l -> pop A less dflt l = Some (x, l') -> heap_ok l'.
  Proof.
    intros H Hp. unfold pop in Hp. destruct l as [|y r] eqn:E; [discriminate|]. rewrite <- E in *.
    assert (Hlen : (0 < length l)%nat) by (rewrite E; cbn; lia). clear y r E.
    injection Hp as _ <-. rewrite down_fst, swap_length.
    apply heap_at_firstn; [rewrite down_go_length, swap_length; lia|].
    destruct (Nat.eq_dec (length l - 1) 0) as [Hn0|Hn0]; [intros k Hk; lia|].
    apply heap_from_0, down_go_ok; rewrite ?swap_length; try lia.
    intros k Hk _ Hpk. pose proof (par_lt k (proj1 Hk)). rewrite !hnth_swap_other by lia. apply H. lia.
  Qed.

  (* Floyd's heapify: once the nodes k, k+1, ... have been sifted down, every edge whose parent has index k or more is in order *)
  Lemma heapify_go_ok k : forall l, (k <= length l)%nat -> heap_from k l (length l) -> heap_ok (heapify_go A less dflt k l).
  Proof.
    induction k as [|k IH]; intros l Hk H; cbn [heapify_go]; [now apply heap_from_0|].
    rewrite down_fst. apply IH; rewrite down_go_length; [lia|].
    apply down_go_ok; try lia.
    - intros c Hc Hlo Hne. apply H; [assumption|lia].
    - intros c _ _ Hk0 Hlo. pose proof (par_lt k Hk0). lia.
  Qed.
  Theorem heapify_ok l : heap_ok (heapify A less dflt l).
  Proof.
    apply heapify_go_ok; [apply Nat.div_le_upper_bound; lia|].
    intros k Hk Hp. pose proof (par_child k (proj1 Hk)).
    pose proof (Nat.mul_succ_div_gt (length l) 2 ltac:(discriminate)). lia.
  Qed.
End Order.
Arguments pop_ok A less dflt le_trans less_le [l x l'].
