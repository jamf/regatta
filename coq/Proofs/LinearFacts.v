From Coq Require Import Lia.
From Verif Require Import Model.Linear Proofs.FsmRefine Proofs.SpecFacts.

Lemma txn_is_readonly_ranges su fa : txn_is_readonly su fa = all_ranges su && all_ranges fa.
Proof. reflexivity. Qed.

Lemma spec_entry_rev st e : r_rev (snd (spec_entry st e)) = e_index e.
Proof. rewrite spec_entry_eq. reflexivity. Qed.

Theorem mutation_revision st e : api_mutation (e_cmd e) = true ->
  r_data (snd (spec_entry st e)) = true /\ r_rev (snd (spec_entry st e)) = e_index e.
Proof.
  intros H. split; [|apply spec_entry_rev]. rewrite spec_entry_eq. unfold s_handle.
  destruct (e_cmd e); try discriminate; cbn [handle].
  - destruct (handle_put umap p_get p_set (content st) _). reflexivity.
  - destruct (handle_delete umap p_get p_del p_delrange p_scan (content st) _). reflexivity.
  - reflexivity.
Qed.

Theorem revisions_are_indices es : forall st, map r_rev (snd (spec_entries st es)) = map e_index es.
Proof.
  induction es as [|e r IH]; intros st; cbn [spec_entries map]; [reflexivity|].
  pose proof (spec_entry_rev st e) as H. destruct (spec_entry st e) as [st1 o].
  specialize (IH st1). destruct (spec_entries st1 r) as [st2 os]. cbn [snd map] in *. now rewrite H, IH.
Qed.

(* a replica that has applied k >= a entries has applied every one of the first a (acknowledged) writes:
   its state is the state after those a writes, advanced by the next k-a entries of the same log *)
Theorem replica_includes_acknowledged log a k : (a <= k)%nat ->
  replica_state log k = fst (spec_entries (replica_state log a) (firstn (k - a) (skipn a log))).
Proof.
  intros H. unfold replica_state.
  rewrite <- (firstn_skipn a (firstn k log)), firstn_firstn, Nat.min_l, skipn_firstn_comm, spec_entries_app by exact H.
  destruct (spec_entries spec_init (firstn a log)) as [st1 o1]. cbn [fst].
  destruct (spec_entries st1 (firstn (k - a) (skipn a log))) as [st2 o2]. reflexivity.
Qed.

(* when nothing was committed after the acknowledged writes, a linearizable read returns exactly the state after them *)
Theorem linearizable_read_exact log a k q : (a <= k)%nat -> a = length log ->
  replica_read log k q = s_lookup (content (fst (spec_entries spec_init log))) q.
Proof.
  intros H ->. unfold replica_read, replica_state. now rewrite firstn_all2 by lia.
Qed.

(* a serializable read answers from the state after SOME prefix of the committed log - a state that existed *)
Theorem serializable_read_is_prefix log k q :
  exists p, (p <= length log)%nat /\ replica_read log k q = s_lookup (content (fst (spec_entries spec_init (firstn p log)))) q.
Proof.
  exists (Nat.min k (length log)). split; [lia|]. unfold replica_read, replica_state.
  now rewrite <- firstn_firstn, firstn_all.
Qed.

(* the engine layer: a linearizable Range/IterateRange and every read-only transaction, on a leader or a follower, at any
   lag, is served from a state that includes the a writes acknowledged before it (a <= committed: acknowledged writes are
   committed).  Both paths are [SyncRead] by definition, and [serve_at SyncRead] is dragonboat's ReadIndex contract, assumed and
   written into Model/Linear.v: what is proved here is the prefix algebra on top of it. *)
Lemma sync_read_includes_acknowledged log applied committed a : (a <= committed)%nat ->
  let k := serve_at SyncRead applied committed in
  (a <= k)%nat /\ replica_state log k = fst (spec_entries (replica_state log a) (firstn (k - a) (skipn a log))).
Proof.
  intros H k. assert (Hk : (a <= k)%nat) by (subst k; cbn; lia). split; [exact Hk|]. now apply replica_includes_acknowledged.
Qed.

Theorem engine_serializable_read applied committed is_leader : serve_at (engine_range_path false is_leader) applied committed = applied.
Proof. reflexivity. Qed.
