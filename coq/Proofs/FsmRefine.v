(* The table state machine over the encoded key space refines the plain sorted map of Model/Spec.v:
   key encoding, range bounds and the two bookkeeping keys are invisible to every command and every read. *)
From Verif Require Import Model.Fsm Model.Spec.
From Verif Require Import Proofs.BytesFacts Proofs.SMapFacts Proofs.KeyEncFacts Proofs.CmdLift.

Definition encp (kv : bytes * bytes) : bytes * bytes := (enc (fst kv), snd kv).
Definition sys_entries (ol od : option N) : store :=
  (match ol with Some i => [(sysLocalIndex, idx_bytes i)] | None => [] end) ++
  (match od with Some l => [(sysLeaderIndex, idx_bytes l)] | None => [] end).
Definition repr (U : umap) (ol od : option N) : store := map encp U ++ sys_entries ol od.
Definition dflt (o : option N) : N := match o with Some x => x | None => 0 end.

Lemma lex_enc a b : lex_compare (enc a) (enc b) = lex_compare a b.
Proof. apply encode_order. Qed.

Lemma beqb_enc a b : beqb (enc a) (enc b) = beqb a b.
Proof. unfold beqb. now rewrite lex_enc. Qed.

Lemma user_key_of_enc k : user_key_of (enc k) = k.
Proof.
  unfold user_key_of, enc. destruct k as [|x k]; [now rewrite decode_encode_empty|].
  now rewrite decode_encode by discriminate.
Qed.

Lemma sys_in ol od : Forall (fun x => fst x = sysLocalIndex \/ fst x = sysLeaderIndex) (sys_entries ol od).
Proof. destruct ol, od; repeat (apply Forall_cons; [cbn; auto|]); apply Forall_nil. Qed.

Lemma enc_lt_bookkeeping k s : s = sysLocalIndex \/ s = sysLeaderIndex -> blt (enc k) s.
Proof. intros [-> | ->]; [rewrite sysLocalIndex_enc|rewrite sysLeaderIndex_enc]; apply enc_lt_sys_key. Qed.

Lemma enc_below_sys_entries k ol od : below (enc k) (sys_entries ol od).
Proof. eapply Forall_impl; [|apply sys_in]. intros x. apply enc_lt_bookkeeping. Qed.

Lemma sys_key_above_encoded s (U : umap) : s = sysLocalIndex \/ s = sysLeaderIndex -> above s (map encp U).
Proof. intros Hs. apply Forall_map, Forall_forall. intros [u v] _. now apply enc_lt_bookkeeping. Qed.

Lemma in_range_bounds b k : in_range (fst b) (snd b) k = in_bounds b k.
Proof. reflexivity. Qed.

Lemma in_bounds_enc lo hi k : in_bounds (bounds lo hi) (enc k) = p_in lo hi k.
Proof.
  unfold in_bounds, p_in, bounds. cbn [fst snd]. unfold bleb at 1. rewrite lex_enc. fold (bleb lo k).
  destruct (beqb hi wildcard); cbn [orb]; unfold bltb at 1.
  - now rewrite (wildcard_covers_all_user_keys k : lex_compare _ _ = Lt).
  - now rewrite lex_enc.
Qed.

Lemma in_bounds_sys lo hi x ol od : In x (sys_entries ol od) -> in_bounds (bounds lo hi) (fst x) = false.
Proof.
  intros H. destruct (sys_keys_outside_user_ranges lo hi) as [H1 H2].
  destruct (proj1 (Forall_forall _ _) (sys_in ol od) x H) as [-> | ->]; assumption.
Qed.

(* a scan (h = identity) or its complement (h = negb) over the encoded pairs *)
Lemma filter_encp (h : bool -> bool) lo hi (U : umap) :
  filter (fun kv => h (in_range (fst (bounds lo hi)) (snd (bounds lo hi)) (fst kv))) (map encp U) =
  map encp (filter (fun kv => h (p_in lo hi (fst kv))) U).
Proof.
  rewrite filter_map_comm. f_equal. apply filter_ext. intros [k v]. cbn [encp fst].
  now rewrite in_range_bounds, in_bounds_enc.
Qed.

Lemma sget_map_enc U k : sget (map encp U) (enc k) = sget U k.
Proof.
  induction U as [|[k0 v0] r IH]; cbn [map sget encp fst snd]; [reflexivity|].
  rewrite beqb_enc. destruct (beqb k k0); auto.
Qed.

Lemma sset_map_enc U S k v : below (enc k) S -> sset (map encp U ++ S) (enc k) v = map encp (sset U k v) ++ S.
Proof.
  intros HS. induction U as [|[k0 v0] r IH]; cbn [map app sset encp fst snd].
  - now apply sset_below.
  - rewrite lex_enc.
    destruct (lex_compare k k0); cbn [map app encp fst snd]; try reflexivity. now rewrite IH.
Qed.

Lemma sdel_map_enc U S k : below (enc k) S -> sdel (map encp U ++ S) (enc k) = map encp (sdel U k) ++ S.
Proof.
  intros HS. induction U as [|[k0 v0] r IH]; cbn [map app sdel encp fst snd].
  - now apply sdel_below.
  - rewrite beqb_enc. destruct (beqb k k0); cbn [map app encp fst snd]; [reflexivity|]. now rewrite IH.
Qed.

Section Repr.
  Variables ol od : option N.

  Lemma get_agree U k : e_get (repr U ol od) k = p_get U k.
  Proof.
    unfold e_get, p_get, repr. rewrite sget_app, sget_map_enc, (sget_below (sys_entries ol od)) by apply enc_below_sys_entries.
    now destruct (sget U k).
  Qed.

  Lemma set_agree U k v : e_set (repr U ol od) k v = repr (p_set U k v) ol od.
  Proof. apply sset_map_enc, enc_below_sys_entries. Qed.

  Lemma del_agree U k : e_del (repr U ol od) k = repr (p_del U k) ol od.
  Proof. apply sdel_map_enc, enc_below_sys_entries. Qed.

  Lemma delrange_agree U lo hi : e_delrange (repr U ol od) lo hi = repr (p_delrange U lo hi) ol od.
  Proof.
    unfold e_delrange, p_delrange, repr, sdelrange. rewrite filter_app, (filter_encp negb), (filter_all _ (sys_entries ol od)); [reflexivity|].
    intros x Hx. now rewrite in_range_bounds, (in_bounds_sys lo hi x ol od Hx).
  Qed.

  Lemma scan_agree U lo hi : e_scan (repr U ol od) lo hi = p_scan U lo hi.
  Proof.
    unfold e_scan, p_scan, repr, sscan. rewrite filter_app, (filter_encp (fun b => b)), (filter_none _ (sys_entries ol od)).
    - rewrite app_nil_r, map_map. erewrite map_ext; [apply map_id|].
      intros [k v]. cbn [encp fst snd]. now rewrite user_key_of_enc.
    - intros x Hx. rewrite in_range_bounds. now apply (in_bounds_sys lo hi x ol od).
  Qed.

  (* Proofs/CmdLift.v along [fun U => repr U ol od] *)
  Theorem handle_refines c U :
    f_handle (repr U ol od) c = (repr (fst (s_handle U c)) ol od, snd (s_handle U c)).
  Proof.
    exact (handle_hom (fun U => repr U ol od) get_agree set_agree del_agree delrange_agree scan_agree c U).
  Qed.

  Lemma lookup_refines U q : f_lookup (repr U ol od) q = s_lookup U q.
  Proof. exact (lookup_hom (fun U => repr U ol od) get_agree scan_agree U q). Qed.

  Lemma iterator_lookup_refines U q : f_iterator_lookup (repr U ol od) q = s_iterator_lookup U q.
  Proof. exact (iterator_lookup_hom (fun U => repr U ol od) get_agree scan_agree U q). Qed.

  Lemma lookup_txn_refines U cs su fa : f_lookup_txn (repr U ol od) cs su fa = s_lookup_txn U cs su fa.
  Proof. exact (lookup_txn_hom (fun U => repr U ol od) get_agree scan_agree U cs su fa). Qed.
End Repr.

Lemma sset_sys_leader ol od l : sset (sys_entries ol od) sysLeaderIndex (idx_bytes l) = sys_entries ol (Some l).
Proof. destruct ol, od; reflexivity. Qed.

Lemma sset_sys_local ol od i : sset (sys_entries ol od) sysLocalIndex (idx_bytes i) = sys_entries (Some i) od.
Proof. destruct ol, od; reflexivity. Qed.

Lemma commit_repr U ol od i ld :
  commit {| u_store := repr U ol od; u_index := i; u_leader := ld |} =
  repr U (Some i) (match ld with Some l => Some l | None => od end).
Proof.
  unfold commit, repr. cbn [u_store u_index u_leader].
  destruct ld as [l|]; rewrite !sset_app_above by (apply sys_key_above_encoded; auto).
  - now rewrite sset_sys_leader, sset_sys_local.
  - now rewrite sset_sys_local.
Qed.

Definition u64 (n : N) : Prop := n < 2 ^ 64.
Definition u64o (o : option N) : Prop := match o with Some n => u64 n | None => True end.

(* readLocalIndex of a bookkeeping key whose entry, if any, holds the index o.
   [cbn] only on the two outer functions: unfolding le_val (le_bytes 8 n) is slow. *)
Lemma read_index_repr U ol od k o :
  k = sysLocalIndex \/ k = sysLeaderIndex -> sget (sys_entries ol od) k = option_map idx_bytes o -> u64o o ->
  read_index (repr U ol od) k = dflt o.
Proof.
  intros Hk Hget Ho. unfold read_index, repr. rewrite sget_app_above, Hget by now apply sys_key_above_encoded.
  destruct o as [n|]; cbn [option_map dflt]; [|reflexivity].
  exact (le_val_bytes 8 n Ho).
Qed.

Lemma local_index_repr U ol od : u64o ol -> local_index (repr U ol od) = dflt ol.
Proof. apply read_index_repr; [now left|]. now destruct ol, od. Qed.

Lemma leader_index_repr U ol od : u64o od -> leader_index (repr U ol od) = dflt od.
Proof. apply read_index_repr; [now right|]. now destruct ol, od. Qed.

Fixpoint last_index (i : N) (es : list entry) : N :=
  match es with [] => i | e :: r => last_index (e_index e) r end.

Lemma last_index_nonempty i j es : es <> [] -> last_index i es = last_index j es.
Proof. destruct es; [congruence|reflexivity]. Qed.

(* the leader index an entry leaves behind; [batch_leader es] is [fold_left leader_after es None] *)
Definition leader_after (acc : option N) (e : entry) : option N :=
  match e_leader e with Some l => Some l | None => acc end.

Lemma leader_after_from es : forall a,
  fold_left leader_after es a = match batch_leader es with Some l => Some l | None => a end.
Proof.
  induction es as [|e r IH] using rev_ind; intros a; [reflexivity|].
  change (batch_leader (r ++ [e])) with (fold_left leader_after (r ++ [e]) None).
  rewrite !fold_left_app. cbn [fold_left]. unfold leader_after at 1 3.
  destruct (e_leader e); [reflexivity|apply IH].
Qed.

Lemma batch_leader_app a b :
  batch_leader (a ++ b) = match batch_leader b with Some l => Some l | None => batch_leader a end.
Proof.
  change (batch_leader (a ++ b)) with (fold_left leader_after (a ++ b) None).
  rewrite fold_left_app. apply leader_after_from.
Qed.

Definition mk_result (idx : N) (c : command) (o : N * list response_op) : result :=
  {| r_value := fst o; r_rev := idx; r_resps := snd o;
     r_data := is_txn c || match snd o with [] => false | _ => true end |}.

Lemma spec_entry_eq st e :
  spec_entry st e =
  ({| content := fst (s_handle (content st) (e_cmd e)); applied := e_index e;
      leader := match e_leader e with Some l => l | None => leader st end |},
   mk_result (e_index e) (e_cmd e) (snd (s_handle (content st) (e_cmd e)))).
Proof. unfold spec_entry. now destruct (s_handle (content st) (e_cmd e)) as [U [val rs]]. Qed.

Lemma spec_entries_cons st e r : fst (spec_entries st (e :: r)) = fst (spec_entries (fst (spec_entry st e)) r).
Proof.
  cbn [spec_entries]. destruct (spec_entry st e) as [st1 o]. cbn [fst]. now destruct (spec_entries st1 r).
Qed.

Lemma spec_entries_applied es : forall st, applied (fst (spec_entries st es)) = last_index (applied st) es.
Proof.
  induction es as [|e r IH]; intros st; [reflexivity|].
  now rewrite spec_entries_cons, IH, spec_entry_eq.
Qed.

Lemma spec_entries_leader es : forall st,
  leader (fst (spec_entries st es)) = match batch_leader es with Some l => l | None => leader st end.
Proof.
  induction es as [|e r IH]; intros st; [reflexivity|].
  rewrite spec_entries_cons, IH, spec_entry_eq. cbn [fst leader].
  change (batch_leader (e :: r)) with (fold_left leader_after r (leader_after None e)).
  rewrite leader_after_from. unfold leader_after.
  now destruct (batch_leader r), (e_leader e).
Qed.

Definition ctx_of (U : umap) (ol od : option N) (i : N) (ld : option N) : uctx :=
  {| u_store := repr U ol od; u_index := i; u_leader := ld |}.

Lemma update_one_refines st ol od i ld e :
  update_one (ctx_of (content st) ol od i ld) e =
  (ctx_of (content (fst (spec_entry st e))) ol od (e_index e) (leader_after ld e), snd (spec_entry st e)).
Proof.
  unfold update_one, update_one_gen, ctx_of. cbn [u_store u_leader].
  rewrite handle_refines, spec_entry_eq.
  now destruct (snd (s_handle (content st) (e_cmd e))).
Qed.

Lemma update_entries_refines es : forall st ol od i ld,
  update_entries update_one (ctx_of (content st) ol od i ld) es =
  (ctx_of (content (fst (spec_entries st es))) ol od (last_index i es) (fold_left leader_after es ld),
   snd (spec_entries st es)).
Proof.
  induction es as [|e r IH]; intros st ol od i ld; [reflexivity|].
  cbn [update_entries spec_entries last_index fold_left].
  rewrite update_one_refines. destruct (spec_entry st e) as [st1 o]. cbn [fst snd].
  rewrite IH. now destruct (spec_entries st1 r).
Qed.

(* one apply call on a stored table, for every batch (the empty one records index 0) *)
Theorem Update_repr st ol od es :
  Update (repr (content st) ol od) es =
  (repr (content (fst (spec_entries st es))) (Some (last_index 0 es))
        (match batch_leader es with Some l => Some l | None => od end),
   snd (spec_entries st es),
   match batch_leader es with Some l => l | None => last_index 0 es end).
Proof.
  unfold Update, Update_gen. fold update_one.
  change {| u_store := repr (content st) ol od; u_index := 0; u_leader := None |} with (ctx_of (content st) ol od 0 None).
  rewrite update_entries_refines.
  change (fold_left leader_after es None) with (batch_leader es).
  unfold ctx_of at 1. rewrite commit_repr.
  now destruct (spec_entries st es).
Qed.

Theorem Update_refines U ol od es st :
  es <> [] -> content st = U -> applied st = dflt ol -> leader st = dflt od ->
  let st' := fst (spec_apply st es) in
  exists od', Update (repr U ol od) es =
              (repr (content st') (Some (applied st')) od', snd (spec_entries st es),
               match batch_leader es with Some l => l | None => applied st' end)
              /\ leader st' = dflt od' /\ od' = match batch_leader es with Some l => Some l | None => od end.
Proof.
  intros Hne <- Ha Hl. unfold spec_apply.
  pose proof (spec_entries_applied es st) as HA. pose proof (spec_entries_leader es st) as HL.
  rewrite (last_index_nonempty (applied st) 0 es Hne) in HA.
  rewrite Update_repr. destruct (spec_entries st es) as [st' rs]. cbn [fst snd] in *.
  eexists. rewrite HA, HL, Hl. split; [reflexivity|]. split; [|reflexivity].
  now destruct (batch_leader es).
Qed.

(* es <> []: an empty apply call would record index 0 (Update_repr) where spec_apply keeps the applied index;
   dragonboat never issues one *)
Definition wf_entry (e : entry) : Prop := u64 (e_index e) /\ u64o (e_leader e).
Definition wf_step (s : step) : Prop :=
  match s with SApply es => es <> [] /\ Forall wf_entry es | _ => True end.

Lemma last_index_u64 es : forall i, u64 i -> Forall wf_entry es -> u64 (last_index i es).
Proof.
  induction es as [|e r IH]; intros i Hi H; [exact Hi|].
  inversion H as [|? ? [He _] Hr]; subst. now apply IH.
Qed.

Lemma batch_leader_u64 es : Forall wf_entry es -> u64o (batch_leader es).
Proof.
  unfold batch_leader. intros H. generalize (I : u64o None). generalize (@None N).
  induction H as [|e r [_ He] _ IH]; intros o Ho; [exact Ho|].
  apply IH. unfold leader_after. now destruct (e_leader e).
Qed.

(* a stored table and the state of the specification it stands for: the invariant of a scenario.
   The bounds are there for the index reads, which decode 8 bytes. *)
Definition sim (s : store) (st : spec_state) : Prop :=
  exists ol od, s = repr (content st) ol od /\ u64o ol /\ u64o od /\ applied st = dflt ol /\ leader st = dflt od.

Lemma sim_apply s st es : sim s st -> es <> [] -> Forall wf_entry es ->
  exists s', Update s es = (s', snd (spec_entries st es),
                            match batch_leader es with Some l => l | None => applied (fst (spec_entries st es)) end) /\
             sim s' (fst (spec_entries st es)).
Proof.
  intros (ol & od & -> & Hol & Hod & Ha & Hl) Hne Hwf.
  destruct (Update_refines _ ol od es st Hne eq_refl Ha Hl) as (od' & E & Hl' & ->).
  unfold spec_apply in *. pose proof (spec_entries_applied es st) as HA.
  destruct (spec_entries st es) as [st' rs]. cbn [fst snd] in *.
  eexists. split; [exact E|]. do 2 eexists. split; [reflexivity|]. repeat split.
  - rewrite HA, (last_index_nonempty (applied st) 0 es Hne). now apply last_index_u64.
  - pose proof (batch_leader_u64 es Hwf). now destruct (batch_leader es).
  - exact Hl'.
Qed.

Lemma steps_sim steps : forall s st, sim s st -> Forall wf_step steps ->
  fsm_steps s steps = spec_steps st steps /\ sim (fsm_final s steps) (spec_final st steps).
Proof.
  induction steps as [|x r IH]; intros s st Hs Hwf; [now split|].
  inversion Hwf as [|? ? Hx Hr]; subst.
  destruct x as [es|q|q|cs su fa| |]; cbn [fsm_steps spec_steps fsm_final spec_final].
  - (* SApply *) destruct Hx as [Hne Hes]. destruct (sim_apply s st es Hs Hne Hes) as (s' & -> & Hs').
    unfold spec_apply. destruct (spec_entries st es) as [st' rs]. cbn [fst snd] in *.
    destruct (IH _ _ Hs' Hr) as [-> I2]. now split.
  - (* SRead *) destruct (IH _ _ Hs Hr) as [-> I2]. destruct Hs as (ol & od & -> & _). now rewrite lookup_refines.
  - (* SIter *) destruct (IH _ _ Hs Hr) as [-> I2]. destruct Hs as (ol & od & -> & _). now rewrite iterator_lookup_refines.
  - (* STxnRO *) destruct (IH _ _ Hs Hr) as [-> I2]. destruct Hs as (ol & od & -> & _). now rewrite lookup_txn_refines.
  - (* SIndex *) destruct (IH _ _ Hs Hr) as [-> I2]. destruct Hs as (ol & od & -> & Hol & Hod & -> & ->).
    now rewrite local_index_repr, leader_index_repr.
  - (* SReopen *) destruct (IH _ _ Hs Hr) as [-> I2]. destruct Hs as (ol & od & -> & Hol & Hod & -> & ->).
    now rewrite local_index_repr, leader_index_repr.
Qed.

Theorem steps_refine steps : forall ol od st,
  Forall wf_step steps -> u64o ol -> u64o od ->
  applied st = dflt ol -> leader st = dflt od ->
  fsm_steps (repr (content st) ol od) steps = spec_steps st steps /\
  exists ol' od', fsm_final (repr (content st) ol od) steps = repr (content (spec_final st steps)) ol' od' /\
                  applied (spec_final st steps) = dflt ol' /\ leader (spec_final st steps) = dflt od'.
Proof.
  intros ol od st Hwf Hol Hod Ha Hl.
  destruct (steps_sim steps (repr (content st) ol od) st) as [G1 (ol' & od' & G2)]; [now exists ol, od|exact Hwf|].
  split; [exact G1|]. exists ol', od'. tauto.
Qed.

Corollary steps_outputs_refine steps ol od st :
  Forall wf_step steps -> u64o ol -> u64o od -> applied st = dflt ol -> leader st = dflt od ->
  fsm_steps (repr (content st) ol od) steps = spec_steps st steps.
Proof. intros Hwf Hol Hod Ha Hl. exact (proj1 (steps_refine steps ol od st Hwf Hol Hod Ha Hl)). Qed.
