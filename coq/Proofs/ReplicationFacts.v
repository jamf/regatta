From Verif Require Import Model.Replication.

Section Repl.
  Variables (S C : Type) (app : S -> C -> S) (init : S).
  Notation state_at := (state_at S C app init).
  Notation Inv := (Inv S C app init).
  Notation step := (step S C app init).
  Notation run := (run S C app init).
  Notation guarded := (guarded C).

  Lemma firstn_add {A} (l : list A) i k : firstn (i + k) l = firstn i l ++ firstn k (skipn i l).
  Proof.
    revert l. induction i as [|i IH]; intros l; [reflexivity|]. destruct l as [|x l]; cbn.
    - now rewrite firstn_nil.
    - now rewrite IH.
  Qed.
  Lemma state_at_add L i k : state_at L (i + k) = fold_left app (firstn k (skipn i L)) (state_at L i).
  Proof. unfold Replication.state_at. now rewrite firstn_add, fold_left_app. Qed.
  Lemma state_at_app L c i : i <= length L -> state_at (L ++ [c]) i = state_at L i.
  Proof. intros H. unfold Replication.state_at. now rewrite firstn_app, (proj2 (Nat.sub_0_le i (length L)) H), firstn_O, app_nil_r. Qed.

  (* however the entries are cut into proposals: all of them are applied, in order, once, and the recorded index
     advances by their number *)
  Lemma propose_flat sizes : forall es f,
    f_store S (propose S C app f es sizes) = fold_left app es (f_store S f) /\
    f_lidx S (propose S C app f es sizes) = f_lidx S f + length es.
  Proof.
    induction sizes as [|k ks IH]; intros [|e es] f; cbn [propose].
    - split; [reflexivity|cbn; lia].
    - split; reflexivity.
    - split; [reflexivity|cbn; lia].
    - destruct (IH (skipn (Datatypes.S k) (e :: es)) (apply_seq S C app f (firstn (Datatypes.S k) (e :: es))
                    (f_lidx S f + length (firstn (Datatypes.S k) (e :: es))))) as [H1 H2].
      rewrite H1, H2. cbn [apply_seq f_store f_lidx]. split.
      + now rewrite <- fold_left_app, firstn_skipn.
      + now rewrite <- Nat.add_assoc, <- app_length, firstn_skipn.
  Qed.

  (* ONE SERVED POLL: the follower moves to exactly the leader's state m entries further on, m = what was delivered *)
  Lemma poll_lands s n sizes : Inv s -> s_marker S C s <= f_lidx S (s_fol S C s) ->
    let r := f_lidx S (s_fol S C s) in
    let m := Nat.min n (length (s_log S C s) - r) in
    let f' := s_fol S C (step s (APoll C n sizes)) in
    f_store S f' = state_at (s_log S C s) (r + m) /\ f_lidx S f' = r + m.
  Proof.
    intros [Hs _] Hm. cbn zeta. cbn [step]. replace (_ <? _) with false by (symmetry; now apply Nat.ltb_ge). cbn [s_fol].
    set (r := f_lidx S (s_fol S C s)) in *.
    destruct (propose_flat sizes (firstn n (skipn r (s_log S C s))) (s_fol S C s)) as [H1 H2].
    rewrite H1, H2, firstn_length, skipn_length. split; [|reflexivity].
    now rewrite state_at_add, Hs, <- skipn_length, <- firstn_firstn, firstn_all.
  Qed.
  Lemma poll_refused s n sizes : f_lidx S (s_fol S C s) < s_marker S C s -> step s (APoll C n sizes) = s.
  Proof. intros H. cbn [step]. now rewrite (proj2 (Nat.ltb_lt _ _) H). Qed.

  Lemma poll_log s n sizes : s_log S C (step s (APoll C n sizes)) = s_log S C s.
  Proof. cbn [step]. now destruct (_ <? _). Qed.

  Lemma log_grows s a : exists ext, s_log S C (step s a) = s_log S C s ++ ext.
  Proof.
    destruct a as [c| | | |]; rewrite ?poll_log; cbn [step s_log]; [now exists [c]|..].
    all: exists []; now rewrite app_nil_r.
  Qed.

  Theorem step_inv s a : guarded a = true -> Inv s -> Inv (step s a).
  Proof.
    intros Hg HI. pose proof HI as [Hs Hl]. destruct a; try discriminate.
    - (* ALeader *)
      split; cbn [step s_log s_fol].
      + now rewrite state_at_app.
      + rewrite app_length. cbn. lia.
    - (* ACompact *)
      exact HI.
    - (* APoll *)
      destruct (Nat.le_gt_cases (s_marker S C s) (f_lidx S (s_fol S C s))) as [Hm|Hm]; [|now rewrite poll_refused].
      destruct (poll_lands s n sizes HI Hm) as [H1 H2].
      unfold Replication.Inv. rewrite H1, H2, poll_log. split; [reflexivity|lia].
    - (* ARecover *)
      split; [reflexivity|apply le_n].
  Qed.

  Theorem run_inv acts : forallb guarded acts = true -> Inv (run acts).
  Proof.
    unfold Replication.run. assert (H0 : Inv (sys0 S C init)) by (split; [reflexivity|apply le_n]).
    revert H0. generalize (sys0 S C init). induction acts as [|a acts IH]; intros s Hs Hg; [exact Hs|].
    cbn in Hg. apply andb_prop in Hg as [Ha Hg]. cbn [fold_left]. apply IH; [now apply step_inv|assumption].
  Qed.

  Theorem step_monotone s a : guarded a = true -> Inv s -> f_lidx S (s_fol S C s) <= f_lidx S (s_fol S C (step s a)).
  Proof.
    intros Hg HI. destruct a; try discriminate.
    - (* ALeader *)
      apply le_n.
    - (* ACompact *)
      apply le_n.
    - (* APoll *)
      destruct (Nat.le_gt_cases (s_marker S C s) (f_lidx S (s_fol S C s))) as [Hm|Hm]; [|now rewrite poll_refused].
      destruct (poll_lands s n sizes HI Hm) as [_ H2]. rewrite H2. lia.
    - (* ARecover *)
      apply HI.
  Qed.

  Theorem poll_complete s n sizes : Inv s -> s_marker S C s <= f_lidx S (s_fol S C s) ->
    length (s_log S C s) - f_lidx S (s_fol S C s) <= n ->
    let s' := step s (APoll C n sizes) in
    f_lidx S (s_fol S C s') = length (s_log S C s) /\ f_store S (s_fol S C s') = state_at (s_log S C s) (length (s_log S C s)).
  Proof.
    intros HI Hm Hn. destruct (poll_lands s n sizes HI Hm) as [H1 H2]. destruct HI as [_ Hl].
    cbn zeta. rewrite H1, H2, Nat.min_r, Nat.add_comm, Nat.sub_add by assumption. split; reflexivity.
  Qed.
  Variable ceq : C -> C -> bool.
  Hypothesis ceq_eq : forall x y, ceq x y = true -> x = y.
  Lemma list_eqb_eq a : forall b, list_eqb C ceq a b = true -> a = b.
  Proof.
    induction a as [|x a IH]; intros [|y b] H; try discriminate; [reflexivity|].
    cbn in H. apply andb_prop in H as [H1 H2]. f_equal; [now apply ceq_eq|now apply IH].
  Qed.
  Theorem follows_exact L ps : forall cur fin f,
    follows C ceq L cur ps = Some fin -> cur <= length L ->
    f_store S f = state_at L cur -> f_lidx S f = cur ->
    let f' := replay S C app init L f ps in
    f_store S f' = state_at L fin /\ f_lidx S f' = fin /\ cur <= fin <= length L.
  Proof.
    induction ps as [|p ps IH]; intros cur fin f Hf Hc Hs Hl; cbn [follows replay] in *.
    - injection Hf as <-. repeat split; try assumption; lia.
    - destruct p as [[t|] cs|[t|]|t]; try discriminate.
      + destruct (_ && _) eqn:E; [|discriminate].
        apply andb_prop in E as [E E4]. apply andb_prop in E as [E E3]. apply andb_prop in E as [E1 E2].
        apply list_eqb_eq in E1. apply Nat.eqb_eq in E2. apply Nat.leb_le in E3, E4. subst t.
        destruct (IH (cur + length cs) fin (apply_seq S C app f cs (cur + length cs)) Hf E4) as [H1 [H2 H3]].
        * cbn [apply_seq f_store]. rewrite state_at_add, Hs, <- E1. reflexivity.
        * reflexivity.
        * repeat split; try assumption; lia.
      + destruct (_ && _) eqn:E; [|discriminate].
        apply andb_prop in E as [E1 E2]. apply Nat.leb_le in E1, E2.
        destruct (IH t fin {| f_store := state_at L t; f_lidx := t |} Hf E2 eq_refl eq_refl) as [H1 [H2 H3]].
        repeat split; try assumption; lia.
      + apply (IH cur fin f Hf Hc Hs Hl).
  Qed.
End Repl.
