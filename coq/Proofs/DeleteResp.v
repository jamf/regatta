(* The response of a range delete that asks for the previous pairs is computed by rangeLookup, i.e. it is the FIRST
   PAGE of the chunked iteration.  It equals the plain map's answer (all deleted pairs, their number) whenever no
   size cut happens; a count without pairs is always exact.  The deviation for larger ranges is a known finding. *)
From Verif Require Import Model.Spec Proofs.RangeFacts Proofs.RangeSize.
From Coq Require Import Lia.

Section NoCut.
  Variable P : Type.
  Variables ksz vsz : P -> N.
  Variable maxSize : N.
  Notation resp_size := (resp_size P ksz vsz).
  Notation sf := (sf P ksz vsz).

  (* no size cut along the way: every pair still fits into the response under construction *)
  Fixpoint nocut (m : mode) (ps : list P) (cur : list P) (cnt : Z) : bool :=
    match ps with
    | [] => true
    | p :: rest =>
        negb (maxSize <=? resp_size m cur cnt + sf m p) &&
        nocut m rest (match m with MCount => cur | _ => cur ++ [p] end) (cnt + 1)%Z
    end.

  Lemma chunker_nocut m more : forall ps cur cnt, nocut m ps cur cnt = true ->
    chunker P ksz vsz maxSize m more ps cur cnt =
    [ {| ch_items := match m with MCount => cur | _ => cur ++ ps end;
         ch_count := (cnt + Z.of_nat (length ps))%Z; ch_more := more |} ].
  Proof.
    induction ps as [|p rest IH]; intros cur cnt Hnc; cbn [chunker].
    - rewrite Z.add_0_r. now destruct m; rewrite ?app_nil_r.
    - cbn [nocut] in Hnc. apply andb_prop in Hnc as [Hc Hr]. apply negb_true_iff in Hc.
      unfold size_cut. rewrite Hc, IH by exact Hr. unfold chunk_close. f_equal. f_equal.
      + destruct m; cbn [chunk_push]; now rewrite <- ?app_assoc.
      + cbn [length]. lia.
  Qed.

  Lemma iterate_nocut m ps : nocut m ps [] 0%Z = true ->
    iterate P ksz vsz maxSize m 0%Z ps =
    [ {| ch_items := match m with MCount => [] | _ => ps end; ch_count := Z.of_nat (length ps); ch_more := false |} ].
  Proof. intros H. rewrite iterate_chunker. now apply chunker_nocut. Qed.

  (* a pure count never cuts (sizeCountOnly is 0 and an empty response is a few bytes) *)
  Lemma nocut_count ps : 12 < maxSize -> forall cnt, nocut MCount ps [] cnt = true.
  Proof.
    intros Hm. induction ps as [|p rest IH]; intros cnt; [reflexivity|]. cbn [nocut]. rewrite IH, andb_true_r.
    apply negb_true_iff, N.leb_gt. unfold Cmd.resp_size, Cmd.sf. cbn [map]. rewrite range_resp_size_eq. cbn.
    pose proof (count_part_bound (Z.to_N cnt)). lia.
  Qed.
End NoCut.

Definition nocut_pairs := nocut (bytes * bytes) pair_ksz pair_vsz fsm_maxRangeSize.

Theorem delete_prev_exact (U : umap) (lo hi : bytes) (cnt : bool) :
  nocut_pairs MFull (p_scan U lo hi) [] 0%Z = true ->
  snd (handle_delete umap p_get p_del p_delrange p_scan U {| dl_key := lo; dl_end := Some hi; dl_prev := true; dl_count := cnt |})
  = RDel (Z.of_nat (length (p_scan U lo hi))) (p_scan U lo hi).
Proof.
  intros H. unfold handle_delete. cbn [dl_prev dl_count dl_end dl_key orb snd]. unfold lookup, plain_req. cbn [rq_end].
  unfold range_lookup, iterate_req, req_mode. cbn [rq_keys_only rq_count_only rq_key rq_limit].
  rewrite andb_false_r. unfold nocut_pairs in H. rewrite (iterate_nocut _ _ _ _ MFull _ H). reflexivity.
Qed.

Theorem delete_count_exact (U : umap) (lo hi : bytes) :
  snd (handle_delete umap p_get p_del p_delrange p_scan U {| dl_key := lo; dl_end := Some hi; dl_prev := false; dl_count := true |})
  = RDel (Z.of_nat (length (p_scan U lo hi))) [].
Proof.
  unfold handle_delete. cbn [dl_prev dl_count dl_end dl_key orb snd negb andb]. unfold lookup, plain_req. cbn [rq_end].
  unfold range_lookup, iterate_req, req_mode. cbn [rq_keys_only rq_count_only rq_key rq_limit].
  rewrite (iterate_nocut _ _ _ _ MCount); [reflexivity|]. apply nocut_count. reflexivity.
Qed.

(* with a cut the first page is a strict part: three pairs of 20 bytes under a page limit of 50 *)
Example delete_prev_pages_refuted :
  let ps := [([1], repeat 7 19); ([2], repeat 7 19); ([3], repeat 7 19)]%N in
  let first := hd {| ch_items := []; ch_count := 0; ch_more := false |}%Z
                  (iterate (bytes * bytes) pair_ksz pair_vsz 50 MFull 0%Z ps) in
  ch_count first = 2%Z /\ ch_more first = true /\ length (ch_items first) = 2%nat /\ length ps = 3%nat.
Proof. vm_compute. repeat split. Qed.
