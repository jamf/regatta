(* Every validator of Model/Validate.v is a chain [if c1 then s1 else if c2 then s2 ... else SOk]: an accepted request has
   passed every test.  Each proof walks down the chain once, a [_spec] lemma turning each test into its proposition. *)
From Coq Require Import Lia.
From Verif Require Import Model.Validate.

Theorem range_rejections r :
  ((rr_limit r < 0)%Z -> range_status r = SInvalidArgument) /\
  ((0 <= rr_limit r)%Z -> rr_keys_only r = true -> rr_count_only r = true -> range_status r = SInvalidArgument) /\
  (range_status r = SOk -> (0 <= rr_limit r)%Z /\ (rr_keys_only r && rr_count_only r = false) /\
     (rr_min_mod r <= 0 /\ rr_max_mod r <= 0 /\ rr_min_create r <= 0 /\ rr_max_create r <= 0)%Z /\
     rr_table_len r <> 0 /\ rr_key_len r <> 0 /\ rr_table_known r = true /\ rr_key_len r <= key_limit /\ rr_end_len r <= key_limit) /\
  ((0 <= rr_limit r)%Z -> rr_keys_only r && rr_count_only r = false ->
     (0 < rr_min_mod r \/ 0 < rr_max_mod r \/ 0 < rr_min_create r \/ 0 < rr_max_create r)%Z -> range_status r = SUnimplemented).
Proof.
  unfold range_status. destruct (Z.ltb_spec (rr_limit r) 0).
  { (* a negative limit: InvalidArgument whatever else holds *)
    split; [reflexivity|]. split; [reflexivity|]. split; [discriminate|]. intros; lia. }
  split; [lia|]. split; [intros _ -> ->; reflexivity|]. split.
  - destruct (rr_keys_only r && rr_count_only r); [discriminate|].
    destruct (Z.ltb_spec 0 (rr_min_mod r)); [discriminate|].
    destruct (Z.ltb_spec 0 (rr_max_mod r)); [discriminate|].
    destruct (Z.ltb_spec 0 (rr_min_create r)); [discriminate|].
    destruct (Z.ltb_spec 0 (rr_max_create r)); [discriminate|].
    destruct (N.eqb_spec (rr_table_len r) 0); [discriminate|].
    destruct (N.eqb_spec (rr_key_len r) 0); [discriminate|].
    destruct (rr_table_known r); [|discriminate].
    destruct (N.ltb_spec key_limit (rr_key_len r)); [discriminate|].
    destruct (N.ltb_spec key_limit (rr_end_len r)); [discriminate|].
    intros _. repeat split; assumption.
  - (* whichever filter is set, the first one that is set answers Unimplemented *)
    intros _ ->.
    destruct (Z.ltb_spec 0 (rr_min_mod r)); [reflexivity|].
    destruct (Z.ltb_spec 0 (rr_max_mod r)); [reflexivity|].
    destruct (Z.ltb_spec 0 (rr_min_create r)); [reflexivity|].
    destruct (Z.ltb_spec 0 (rr_max_create r)); [reflexivity|]. lia.
Qed.

Theorem put_accepts_only_within_limits r : put_status r = SOk ->
  pr_table_len r <> 0 /\ 0 < pr_key_len r <= key_limit /\ pr_val_len r <= val_limit /\ pr_table_known r = true.
Proof.
  unfold put_status.
  destruct (N.eqb_spec (pr_table_len r) 0); [discriminate|].
  destruct (N.eqb_spec (pr_key_len r) 0); [discriminate|].
  destruct (pr_table_known r); [|discriminate].
  destruct (N.ltb_spec key_limit (pr_key_len r)); [discriminate|].
  destruct (N.ltb_spec val_limit (pr_val_len r)); [discriminate|].
  intros _. repeat split; try assumption; lia.
Qed.

Theorem del_accepts_only_within_limits r : del_status r = SOk ->
  dr_table_len r <> 0 /\ 0 < dr_key_len r <= key_limit /\ dr_table_known r = true.
Proof.
  unfold del_status.
  destruct (N.eqb_spec (dr_table_len r) 0); [discriminate|].
  destruct (N.eqb_spec (dr_key_len r) 0); [discriminate|].
  destruct (dr_table_known r); [|discriminate].
  destruct (N.ltb_spec key_limit (dr_key_len r)); [discriminate|].
  intros _. repeat split; try assumption; lia.
Qed.

Lemma txn_accepted r : txn_status r = SOk ->
  tr_table_len r <> 0 /\ tr_table_known r = true /\ forallb op_ok (tr_ops r) = true.
Proof.
  unfold txn_status.
  destruct (N.eqb_spec (tr_table_len r) 0); [discriminate|].
  destruct (tr_table_known r); [|discriminate].
  destruct (forallb op_ok (tr_ops r)); [|discriminate].
  intros _. repeat split; assumption.
Qed.

Lemma put_op_ok k v : op_ok (TPut k v) = true <-> 0 < k <= key_limit /\ v <= val_limit.
Proof. unfold op_ok. rewrite !andb_true_iff, negb_true_iff, N.eqb_neq, !N.leb_le. lia. Qed.

Theorem txn_limits_on_every_path r : txn_status r = SOk ->
  forall o k v, In o (tr_ops r) -> In (k, v) (creates o) -> 0 < k <= key_limit /\ v <= val_limit.
Proof.
  intros H o k v Ho Hc. apply txn_accepted in H as (_ & _ & H).
  rewrite forallb_forall in H. specialize (H o Ho).
  destruct o; try contradiction. destruct Hc as [[= <- <-]|[]]. apply put_op_ok. exact H.
Qed.

Theorem status_classes :
  (forall r, pr_table_len r = 0 \/ pr_key_len r = 0 -> put_status r = SInvalidArgument) /\
  (forall r, dr_table_len r = 0 \/ dr_key_len r = 0 -> del_status r = SInvalidArgument) /\
  (forall r, tr_table_len r = 0 -> txn_status r = SInvalidArgument) /\
  (forall r, pr_table_len r <> 0 -> pr_key_len r <> 0 -> pr_table_known r = false -> put_status r = SNotFound) /\
  (forall r, dr_table_len r <> 0 -> dr_key_len r <> 0 -> dr_table_known r = false -> del_status r = SNotFound) /\
  (forall r, tr_table_len r <> 0 -> tr_table_known r = false -> txn_status r = SNotFound) /\
  (forall r, tb_name_len r = 0 -> create_status r = SInvalidArgument /\ delete_status r = SInvalidArgument) /\
  follower_table_mutation_status = SUnimplemented.
Proof.
  repeat apply conj.
  - (* put, nothing named *)
    intros r [Ht|Hk]; unfold put_status.
    + rewrite Ht. reflexivity.
    + rewrite Hk. destruct (pr_table_len r =? 0); reflexivity.
  - (* delete, nothing named *)
    intros r [Ht|Hk]; unfold del_status.
    + rewrite Ht. reflexivity.
    + rewrite Hk. destruct (dr_table_len r =? 0); reflexivity.
  - (* txn, no table named *)
    intros r Ht. unfold txn_status. rewrite Ht. reflexivity.
  - (* put, unknown table *)
    intros r Ht Hk Hkn. unfold put_status. apply N.eqb_neq in Ht, Hk. rewrite Ht, Hk, Hkn. reflexivity.
  - (* delete, unknown table *)
    intros r Ht Hk Hkn. unfold del_status. apply N.eqb_neq in Ht, Hk. rewrite Ht, Hk, Hkn. reflexivity.
  - (* txn, unknown table *)
    intros r Ht Hkn. unfold txn_status. apply N.eqb_neq in Ht. rewrite Ht, Hkn. reflexivity.
  - (* tables API, no name *)
    intros r Hn. unfold create_status, delete_status. rewrite Hn. split; reflexivity.
  - (* follower *)
    reflexivity.
Qed.

Theorem readonly_only_ranges succ fail : is_readonly succ fail = true ->
  forall o, In o (succ ++ fail) -> exists k e, o = TRange k e.
Proof.
  unfold is_readonly. rewrite <- forallb_app, forallb_forall. intros H o Hin. specialize (H o Hin).
  destruct o; try discriminate. eauto.
Qed.
(* in particular: no operation with an empty oneof, no put, no delete ever reaches the read path, and the read path
   creates no record *)
Corollary readonly_no_unset succ fail : is_readonly succ fail = true -> ~ In TUnset (succ ++ fail).
Proof. intros H Hin. destruct (readonly_only_ranges _ _ H _ Hin) as (k & e & E). discriminate. Qed.
Corollary readonly_creates_nothing succ fail : is_readonly succ fail = true -> flat_map creates (succ ++ fail) = [].
Proof.
  intros H. pose proof (readonly_only_ranges _ _ H) as G.
  induction (succ ++ fail) as [|o l IH]; [reflexivity|].
  destruct (G o (or_introl eq_refl)) as (k & e & ->). apply IH. intros o' Ho'. apply G. now right.
Qed.
Theorem not_readonly_has_other succ fail : is_readonly succ fail = false ->
  exists o, In o (succ ++ fail) /\ is_range o = false.
Proof.
  unfold is_readonly. rewrite <- forallb_app. induction (succ ++ fail) as [|o l IH]; cbn; [discriminate|].
  destruct (is_range o) eqn:E; cbn.
  - intros Hl. destruct (IH Hl) as (o' & Hin & Ho'). eauto.
  - eauto.
Qed.

(* cmd.resolveURL: an endpoint speaks TLS exactly for the schemes https and unixs *)
Theorem secure_schemes s : secure s = true <-> s = SchHttps \/ s = SchUnixs.
Proof.
  split.
  - destruct s; cbn; try discriminate; auto.
  - intros [-> | ->]; reflexivity.
Qed.
Theorem unix_schemes s : unix_socket s = true <-> s = SchUnix \/ s = SchUnixs.
Proof.
  split.
  - destruct s; cbn; try discriminate; auto.
  - intros [-> | ->]; reflexivity.
Qed.
