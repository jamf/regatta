From Coq Require Import Sorted.
From Verif Require Import Model.SMap Proofs.BytesFacts.

Section Order.
  Variable V : Type.
  Notation smap := (smap V).
  Definition klt (a b : bytes * V) : Prop := blt (fst a) (fst b).
  Definition sorted (s : smap) : Prop := StronglySorted klt s.
End Order.
Arguments sorted {V}.

Section Facts.
  Context {V : Type}.
  Notation smap := (smap V).
  Notation klt := (klt V).
  Implicit Types A B S s : smap.
  Definition below k S := Forall (fun x => blt k (fst x)) S.
  Definition above k S := Forall (fun x => blt (fst x) k) S.

  Lemma sget_app A B k : sget (A ++ B) k = match sget A k with Some v => Some v | None => sget B k end.
  Proof. induction A as [|[k0 v0] r IH]; simpl; [reflexivity|]. destruct (beqb k k0); auto. Qed.

  Lemma sget_below S k : below k S -> sget S k = None.
  Proof.
    induction 1 as [|[k0 v0] r H _ IH]; simpl; [reflexivity|].
    unfold beqb. now rewrite (H : lex_compare k k0 = Lt).
  Qed.

  Lemma sdel_below S k : below k S -> sdel S k = S.
  Proof.
    induction 1 as [|[k0 v0] r H _ IH]; simpl; [reflexivity|].
    unfold beqb. rewrite (H : lex_compare k k0 = Lt). now f_equal.
  Qed.

  Lemma sset_below S k v : below k S -> sset S k v = (k, v) :: S.
  Proof. destruct 1 as [|[k0 v0] r H _]; simpl; [reflexivity|]. now rewrite (H : lex_compare k k0 = Lt). Qed.

  Lemma sset_app_above A B k v : above k A -> sset (A ++ B) k v = A ++ sset B k v.
  Proof.
    induction 1 as [|[k0 v0] r H _ IH]; simpl; [reflexivity|].
    rewrite lex_antisym, (H : lex_compare k0 k = Lt). simpl. now f_equal.
  Qed.

  Lemma sget_app_above A B k : above k A -> sget (A ++ B) k = sget B k.
  Proof.
    induction 1 as [|[k0 v0] r H _ IH]; simpl; [reflexivity|].
    unfold beqb. now rewrite lex_antisym, (H : lex_compare k0 k = Lt).
  Qed.

  (* [Forall (klt a) s] is [below (fst a) s] *)
  Lemma sorted_below a s k : sorted (a :: s) -> blt k (fst a) -> below k (a :: s).
  Proof.
    intros H Hk. apply StronglySorted_inv in H. constructor; [exact Hk|].
    eapply Forall_impl; [|exact (proj2 H)]. intros x Hx. exact (lex_lt_trans _ _ _ Hk Hx).
  Qed.

  Lemma sorted_app_above (l1 l2 : smap) x : sorted (l1 ++ x :: l2) -> above (fst x) l1.
  Proof.
    induction l1 as [|a l1 IH]; intros Hs; [constructor|].
    apply StronglySorted_inv in Hs. destruct Hs as [Hs Hf]. constructor.
    - rewrite Forall_forall in Hf. apply (Hf x), in_elt.
    - apply IH, Hs.
  Qed.

  Lemma sget_sset s k v k' : sget (sset s k v) k' = if beqb k' k then Some v else sget s k'.
  Proof.
    induction s as [|[k0 v0] r IH]; simpl; [reflexivity|].
    destruct (lex_spec k k0) as [<-|Hlt|Hgt]; simpl.
    - now destruct (beqb k' k).
    - reflexivity.
    - rewrite IH. destruct (beqb k' k0) eqn:E0; [|reflexivity].
      apply beqb_eq in E0. subst k'. now rewrite beqb_sym, (blt_neq k0 k Hgt).
  Qed.

  Lemma Forall_sset (P : bytes * V -> Prop) s k v : Forall P s -> P (k, v) -> Forall P (sset s k v).
  Proof.
    intros H Hk. induction s as [|[k0 v0] r IH]; simpl.
    - constructor; [exact Hk|constructor].
    - inversion H as [|? ? Hx Hr]; subst. destruct (lex_compare k k0).
      + (* Eq *) constructor; [exact Hk|exact Hr].
      + (* Lt *) constructor; [exact Hk|exact H].
      + (* Gt *) constructor; [exact Hx|exact (IH Hr)].
  Qed.

  Lemma sset_sorted s k v : sorted s -> sorted (sset s k v).
  Proof.
    induction s as [|[k0 v0] r IH]; intros H; simpl.
    - constructor; constructor.
    - destruct (lex_spec k k0) as [<-|Hlt|Hgt].
      + apply StronglySorted_inv in H. constructor; apply H.
      + constructor; [exact H|]. exact (sorted_below _ _ _ H Hlt).
      + apply StronglySorted_inv in H. destruct H as [Hr Hf].
        constructor; [apply IH, Hr|]. now apply Forall_sset.
  Qed.

  Lemma sget_in s k v : sorted s -> (sget s k = Some v <-> In (k, v) s).
  Proof.
    induction 1 as [|[k0 v0] r Hr IH Hf]; simpl.
    - split; [discriminate|contradiction].
    - destruct (beqb k k0) eqn:E.
      + apply beqb_eq in E. subst k0. split.
        * intros [= ->]. now left.
        * intros [[= ->]|Hin]; [reflexivity|].
          apply IH in Hin. now rewrite (sget_below r k Hf) in Hin.
      + rewrite IH. split; [auto|]. intros [[= -> ->]|Hin]; [|assumption].
        now rewrite beqb_refl in E.
  Qed.

  Lemma filter_sorted f (s : smap) : sorted s -> sorted (filter f s).
  Proof.
    induction 1 as [|a r Hr IH Hf]; simpl; [constructor|].
    destruct (f a); [|exact IH]. constructor; [exact IH|apply Forall_filter, Hf].
  Qed.

  (* all entries of one key are kept or dropped together, so this needs no order *)
  Lemma sget_filter (f : bytes -> bool) (s : smap) k :
    sget (filter (fun kv => f (fst kv)) s) k = if f k then sget s k else None.
  Proof.
    induction s as [|[k0 v0] r IH]; simpl; [now destruct (f k)|].
    destruct (f k0) eqn:F0; simpl; destruct (beqb k k0) eqn:E; try exact IH.
    - apply beqb_eq in E. subst k0. now rewrite F0.
    - apply beqb_eq in E. subst k0. now rewrite IH, F0.
  Qed.

  (* in a sorted map a key occurs once, so deleting it is filtering it out *)
  Lemma sdel_filter s k : sorted s -> sdel s k = filter (fun kv => negb (beqb k (fst kv))) s.
  Proof.
    induction 1 as [|[k0 v0] r Hr IH Hf]; simpl; [reflexivity|].
    destruct (beqb k k0) eqn:E; simpl; [|now rewrite IH].
    apply beqb_eq in E. subst k0. symmetry. apply filter_all. intros x Hx.
    apply (proj1 (Forall_forall _ _) Hf) in Hx. now rewrite beqb_sym, (blt_neq k _ Hx).
  Qed.

  Lemma sget_sdel s k k' : sorted s -> sget (sdel s k) k' = if beqb k' k then None else sget s k'.
  Proof.
    intros H. rewrite (sdel_filter s k H), (sget_filter (fun x => negb (beqb k x))), beqb_sym.
    now destruct (beqb k' k).
  Qed.

  Lemma sdel_sorted s k : sorted s -> sorted (sdel s k).
  Proof. intros H. rewrite (sdel_filter s k H). now apply filter_sorted. Qed.

  Lemma Forall_sdel (P : bytes * V -> Prop) s k : Forall P s -> Forall P (sdel s k).
  Proof.
    induction 1 as [|[k0 v0] r H0 Hr IH]; simpl; [constructor|].
    destruct (beqb k k0); [assumption|now constructor].
  Qed.

  Lemma sscan_sorted s lo hi : sorted s -> sorted (sscan s lo hi).
  Proof. apply filter_sorted. Qed.
  Lemma sdelrange_sorted s lo hi : sorted s -> sorted (sdelrange s lo hi).
  Proof. apply filter_sorted. Qed.

  Lemma sget_sscan s lo hi k : sorted s -> sget (sscan s lo hi) k = if in_range lo hi k then sget s k else None.
  Proof. intros _. apply (sget_filter (in_range lo hi)). Qed.
  Lemma sget_sdelrange s lo hi k : sorted s -> sget (sdelrange s lo hi) k = if in_range lo hi k then None else sget s k.
  Proof.
    intros _. unfold sdelrange. rewrite (sget_filter (fun k => negb (in_range lo hi k))).
    now destruct (in_range lo hi k).
  Qed.

  Lemma sorted_ext (s1 s2 : smap) : sorted s1 -> sorted s2 -> (forall k, sget s1 k = sget s2 k) -> s1 = s2.
  Proof.
    revert s2. induction s1 as [|[k1 v1] r1 IH]; intros [|[k2 v2] r2] H1 H2 Hext.
    - reflexivity.
    - specialize (Hext k2). simpl in Hext. now rewrite beqb_refl in Hext.
    - specialize (Hext k1). simpl in Hext. now rewrite beqb_refl in Hext.
    - assert (Hk : k1 = k2).
      { (* the smaller of two different first keys is below every key of the other map, which therefore lacks it *)
        destruct (lex_spec k1 k2) as [E|Hlt|Hgt]; [exact E| |]; exfalso.
        - specialize (Hext k1). rewrite (sget_below _ k1 (sorted_below _ _ _ H2 Hlt)) in Hext.
          simpl in Hext. now rewrite beqb_refl in Hext.
        - specialize (Hext k2). rewrite (sget_below _ k2 (sorted_below _ _ _ H1 Hgt)) in Hext.
          simpl in Hext. now rewrite beqb_refl in Hext. }
      subst k2.
      assert (v1 = v2).
      { specialize (Hext k1). simpl in Hext. rewrite beqb_refl in Hext. congruence. }
      subst v2.
      apply StronglySorted_inv in H1. destruct H1 as [Hr1 Hf1]. apply StronglySorted_inv in H2. destruct H2 as [Hr2 Hf2].
      f_equal. apply IH; try assumption.
      intros k. specialize (Hext k). simpl in Hext.
      destruct (beqb k k1) eqn:E; [|assumption].
      apply beqb_eq in E. subst k. now rewrite (sget_below r1 k1 Hf1), (sget_below r2 k1 Hf2).
  Qed.

  Lemma sset_sset_same s k v v' : sset (sset s k v) k v' = sset s k v'.
  Proof.
    induction s as [|[k0 v0] r IH]; simpl.
    - now rewrite lex_refl.
    - destruct (lex_compare k k0) eqn:E; simpl; rewrite ?lex_refl, ?E; try reflexivity. now rewrite IH.
  Qed.

  Lemma sorted_keys_ascending s : sorted s -> StronglySorted blt (map fst s).
  Proof.
    induction 1 as [|a r Hs IH Hf]; simpl; constructor; [assumption|].
    rewrite Forall_forall in *. intros k Hk. apply in_map_iff in Hk. destruct Hk as (x & <- & Hx). now apply Hf.
  Qed.
End Facts.
