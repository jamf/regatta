From Verif Require Import Model.Reconcile Proofs.BytesFacts.

Lemma memb_in x l : memb x l = true <-> In x l.
Proof. apply existsb_Neqb. Qed.
Lemma memb_notin x l : memb x l = false <-> ~ In x l.
Proof. rewrite <- memb_in. destruct (memb x l); split; intros; congruence. Qed.

(* to_delete, to_create and the first half of reconcile are all of this shape *)
Lemma filter_not_memb m l x : In x (filter (fun y => negb (memb y m)) l) <-> In x l /\ ~ In x m.
Proof. now rewrite filter_In, negb_true_iff, memb_notin. Qed.

Theorem reconcile_minimal leader follower x :
  (In x (to_delete leader follower) <-> In x follower /\ ~ In x leader) /\
  (In x (to_create leader follower) <-> In x leader /\ ~ In x follower).
Proof. split; apply filter_not_memb. Qed.

Theorem reconcile_exact leader follower x : In x (reconcile leader follower) <-> In x leader.
Proof.
  unfold reconcile, to_delete, to_create. rewrite in_app_iff, !filter_not_memb.
  split.
  - intros [[Hf Hn]|[Hl _]]; [|exact Hl]. destruct (in_dec N.eq_dec x leader) as [Hl|Hl]; [exact Hl|]. elim Hn. now split.
  - intros Hl. destruct (in_dec N.eq_dec x follower) as [Hf|Hf]; [left|right]; split; try assumption. now intros [_ Hn].
Qed.
Corollary reconcile_empty_leader follower : reconcile [] follower = [].
Proof.
  destruct (reconcile [] follower) as [|x r] eqn:E; [reflexivity|].
  assert (H : In x (reconcile [] follower)) by (rewrite E; now left). apply reconcile_exact in H. destruct H.
Qed.

Theorem reconcile_stable leader : reconcile leader leader = leader.
Proof.
  unfold reconcile, to_delete, to_create.
  rewrite (filter_none (fun f => negb (memb f leader)) leader) by (intros x Hx; apply memb_in in Hx; now rewrite Hx).
  rewrite filter_all by reflexivity. apply app_nil_r.
Qed.
