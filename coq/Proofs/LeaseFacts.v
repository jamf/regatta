From Coq Require Import Lia.
From Verif Require Import Model.Lease.

Definition seen_of (p : pc) : option (option lrec) :=
  match p with Idle => None | PendSet s _ => Some s | PendDel r => Some (Some r) end.

Record LInv (s : lst) : Prop := {
  i_next : 1 <= nexti s;
  i_ver : forall r, rec s = Some r -> 1 <= lver r < nexti s;
  (* a record a node has read: its version is an old index, and if the store still holds that version it holds that record *)
  i_seen : forall n r, seen_of (pcs s n) = Some (Some r) ->
             1 <= lver r < nexti s /\ (forall x, rec s = Some x -> lver x = lver r -> x = r);
  (* a pending take was justified when decided, and stays justified: time only advances *)
  i_take : forall n seen u, pcs s n = PendSet seen u -> may_take n seen (now s) = true;
  i_del : forall n r, pcs s n = PendDel r -> lid r = n;
  (* an unexpired granted lease is what the store records *)
  i_grant : forall n u, grant s n = Some u -> now s <= u -> exists v, rec s = Some {| lid := n; luntil := u; lver := v |}
}.

Lemma LInv0 : LInv lst0.
Proof.
  constructor; simpl.
  - (* i_next *) lia.
  - (* i_ver: no record *) discriminate.
  - (* i_seen: nobody has read *) discriminate.
  - (* i_take *) discriminate.
  - (* i_del *) discriminate.
  - (* i_grant: nothing granted *) discriminate.
Qed.

Lemma may_take_mono n seen t t' : t <= t' -> may_take n seen t = true -> may_take n seen t' = true.
Proof.
  unfold may_take. destruct seen as [r|]; [|reflexivity]. intros Ht H.
  apply orb_true_iff in H. apply orb_true_iff. destruct H as [H|H]; [now left|right].
  apply N.ltb_lt in H. apply N.ltb_lt. lia.
Qed.

Lemma upd_same {A} (f : nat -> A) n v : upd f n v n = v.
Proof. unfold upd. now rewrite Nat.eqb_refl. Qed.
Lemma upd_other {A} (f : nat -> A) n m v : m <> n -> upd f n v m = f m.
Proof. unfold upd. intros H. destruct (Nat.eqb_spec m n); [contradiction|reflexivity]. Qed.

Lemma upd_all {A} (Q : nat -> A -> Prop) f n v m : (forall m', m' <> n -> Q m' (f m')) -> Q n v -> Q m (upd f n v m).
Proof. intros H Hv. unfold upd. destruct (Nat.eqb_spec m n) as [->|Hne]; [exact Hv|now apply H]. Qed.

Lemma cas_read s n o : LInv s -> seen_of (pcs s n) = Some o -> cas_ok (rec s) (seen_ver o) = true -> rec s = o.
Proof.
  intros HI Hse Ec. unfold cas_ok in Ec. destruct o as [r|]; cbn [seen_ver] in Ec.
  - destruct (i_seen s HI n r Hse) as [Hr Huniq].
    destruct (rec s) as [x|]; apply N.eqb_eq in Ec.
    + f_equal. now apply Huniq.
    + lia.
  - destruct (rec s) as [x|] eqn:Er; [|reflexivity].
    apply N.eqb_eq in Ec. pose proof (i_ver s HI x Er). lia.
Qed.

(* a compare-and-set of node n that succeeds finds no other node's unexpired lease: the store held what n had read,
   and n was neither entitled to take such a record nor is it n's own to return *)
Lemma cas_excludes s n o m u : LInv s -> seen_of (pcs s n) = Some o -> cas_ok (rec s) (seen_ver o) = true ->
  grant s m = Some u -> now s <= u -> m = n.
Proof.
  intros HI Hse Ec Hgr Hle. destruct (i_grant s HI m u Hgr Hle) as [v Hrec].
  rewrite (cas_read s n o HI Hse Ec) in Hrec. subst o.
  destruct (pcs s n) as [|seen u'|r] eqn:Ep; [discriminate| |]; injection Hse as ->.
  - pose proof (i_take s HI n _ u' Ep) as Hmay. apply orb_true_iff in Hmay. cbn [lid luntil] in Hmay.
    destruct Hmay as [H|H].
    + now apply Nat.eqb_eq in H.
    + apply N.ltb_lt in H. lia.
  - apply (i_del s HI n _ Ep).
Qed.

(* The steps are of two kinds.  A read-and-decide changes only the node's program counter, and what it has read is
   what the store holds *)
Lemma inv_local s n p : LInv s ->
  (forall r, seen_of p = Some (Some r) -> rec s = Some r) ->
  (forall seen u, p = PendSet seen u -> may_take n seen (now s) = true) ->
  (forall r, p = PendDel r -> lid r = n) ->
  LInv {| rec := rec s; nexti := nexti s; now := now s; pcs := upd (pcs s) n p; grant := grant s |}.
Proof.
  intros [Hn Hv Hs Ht Hd Hg] Hp1 Hp2 Hp3. constructor; cbn [rec nexti now pcs grant]; auto.
  - intros m. apply upd_all; [intros m' _; apply Hs|].
    intros r Hr. apply Hp1 in Hr. split; [now apply Hv|congruence].
  - intros m. apply upd_all; [intros m' _; apply Ht|exact Hp2].
  - intros m. apply upd_all; [intros m' _; apply Hd|exact Hp3].
Qed.

(* A proposal of node n reaches the log: the index advances, the node is idle again, and the record in the store is
   the old one or carries the new version - either way no version another node has read can come to denote a
   different record *)
Lemma inv_applied s n rec' grant' : LInv s ->
  (forall x, rec' = Some x -> rec s = Some x \/ lver x = nexti s) ->
  (forall m u, grant' m = Some u -> now s <= u -> exists v, rec' = Some {| lid := m; luntil := u; lver := v |}) ->
  LInv {| rec := rec'; nexti := nexti s + 1; now := now s; pcs := upd (pcs s) n Idle; grant := grant' |}.
Proof.
  intros [Hn Hv Hs Ht Hd Hg] Hrec Hgr. constructor; cbn [rec nexti now pcs grant].
  - lia.
  - intros x Hx. destruct (Hrec x Hx) as [H|H]; [apply Hv in H|]; lia.
  - intros m. apply upd_all; [|discriminate].
    intros m' _ r Hr. destruct (Hs m' r Hr) as [H1 H2]. split; [lia|].
    intros x Hx. destruct (Hrec x Hx) as [H|H]; [now apply H2|lia].
  - intros m. apply upd_all; [intros m' _; apply Ht|discriminate].
  - intros m. apply upd_all; [intros m' _; apply Hd|discriminate].
  - exact Hgr.
Qed.

Theorem lexec_inv s a : LInv s -> LInv (fst (lexec s a)).
Proof.
  intros HI. destruct a as [d|n dur ex|n|n]; cbn [lexec].
  - (* tick: a pending take stays justified, fewer leases are unexpired *)
    destruct HI as [Hn Hv Hs Ht Hd Hg]. constructor; cbn [fst rec nexti now pcs grant]; auto.
    + intros n seen u Hp. eapply may_take_mono; [|apply (Ht n seen u Hp)]. lia.
    + intros n u Hgr Hle. apply (Hg n u Hgr). lia.
  - (* lease: get + decide *)
    destruct (pcs s n); try exact HI.
    destruct (may_take n (rec s) (now s)) eqn:Em; [|exact HI].
    apply inv_local; [exact HI| | |discriminate].
    + now intros r [= ->].
    + now intros seen u [= <- _].
  - (* return: get + decide *)
    destruct (pcs s n); try exact HI.
    destruct (rec s) as [r|] eqn:Er; [|exact HI].
    destruct (Nat.eqb_spec (lid r) n) as [Hl|Hl]; [|exact HI].
    (* the case analysis has replaced [rec s] in the new state, too *)
    rewrite <- Er. apply inv_local; [exact HI| |discriminate|].
    + now intros r0 [= <-].
    + now intros r0 [= <-].
  - (* the pending write is applied *)
    pose proof (i_grant s HI) as Hg.
    destruct (pcs s n) as [|seen u|r] eqn:Ep; [exact HI| |].
    + assert (Hse : seen_of (pcs s n) = Some seen) by now rewrite Ep.
      destruct (cas_ok (rec s) (seen_ver seen)) eqn:Ec.
      * (* lease acquired *)
        apply inv_applied; [exact HI| |].
        -- intros x [= <-]. now right.
        -- intros m. apply upd_all.
           ++ intros m' Hne u' Hgr Hle. destruct (Hne (cas_excludes s n seen m' u' HI Hse Ec Hgr Hle)).
           ++ intros u' [= <-] _. now eexists.
      * apply inv_applied; [exact HI|auto|exact Hg].
    + assert (Hse : seen_of (pcs s n) = Some (Some r)) by now rewrite Ep.
      destruct (cas_ok (rec s) (lver r)) eqn:Ec.
      * (* lease returned *)
        apply inv_applied; [exact HI|discriminate|].
        intros m. apply upd_all; [|discriminate].
        intros m' Hne u' Hgr Hle. destruct (Hne (cas_excludes s n (Some r) m' u' HI Hse Ec Hgr Hle)).
      * apply inv_applied; [exact HI|auto|exact Hg].
Qed.

Lemma lrun_inv acts : forall s, LInv s -> LInv (fst (lrun s acts)).
Proof.
  induction acts as [|a r IH]; intros s H; cbn [lrun]; [exact H|].
  pose proof (lexec_inv s a H) as H1. destruct (lexec s a) as [s1 o]. cbn [fst] in H1.
  specialize (IH s1 H1). destruct (lrun s1 r) as [s2 os]. exact IH.
Qed.

Theorem mutex_inv s : LInv s -> forall n m, holder s n -> holder s m -> n = m.
Proof.
  intros HI n m (u & Hg1 & Hu) (u' & Hg2 & Hu').
  destruct (i_grant s HI n u Hg1 Hu) as [v Hr1]. destruct (i_grant s HI m u' Hg2 Hu') as [v' Hr2].
  congruence.
Qed.

Theorem mutex acts n m : let s := fst (lrun lst0 acts) in holder s n -> holder s m -> n = m.
Proof. intros s. apply mutex_inv. apply lrun_inv, LInv0. Qed.

Theorem grant_condition s n : LInv s ->
  snd (lexec s (AApply n)) = RAcquired ->
  exists seen u, pcs s n = PendSet seen u /\ may_take n seen (now s) = true /\ cas_ok (rec s) (seen_ver seen) = true.
Proof.
  intros HI. cbn [lexec]. destruct (pcs s n) as [|seen u|r] eqn:Ep; try discriminate.
  - destruct (cas_ok (rec s) (seen_ver seen)) eqn:Ec; [|discriminate]. intros _.
    exists seen, u. repeat split; auto. eapply i_take; eauto.
  - destruct (cas_ok (rec s) (lver r)); discriminate.
Qed.

Lemma seen_old s n o : LInv s -> seen_of (pcs s n) = Some o -> seen_ver o < nexti s.
Proof.
  intros HI Hse. destruct o as [r|]; cbn [seen_ver].
  - pose proof (i_seen s HI n r Hse). lia.
  - pose proof (i_next s HI). lia.
Qed.

(* a successful acquisition defeats every other pending request, whatever it had read: the record now carries the
   newest index as its version *)
Theorem acquired_defeats_pending s n m seen u seen' u' : LInv s -> n <> m ->
  pcs s n = PendSet seen u -> pcs s m = PendSet seen' u' ->
  snd (lexec s (AApply n)) = RAcquired ->
  snd (lexec (fst (lexec s (AApply n))) (AApply m)) = RFailed.
Proof.
  intros HI Hne Hpn Hpm.
  (* the first step alone: unfolded inside the second it would be copied into every field the second reads *)
  destruct (lexec s (AApply n)) as [s1 o] eqn:E. cbn [lexec] in E. rewrite Hpn in E.
  destruct (cas_ok (rec s) (seen_ver seen)); injection E as <- <-; [|discriminate]. intros _.
  cbn [lexec fst pcs rec nexti]. rewrite upd_other by congruence. rewrite Hpm.
  unfold cas_ok. cbn [lver].
  assert (Hlt : seen_ver seen' < nexti s) by (apply (seen_old s m); [exact HI|now rewrite Hpm]).
  replace (nexti s =? seen_ver seen') with false by (symmetry; apply N.eqb_neq; lia). reflexivity.
Qed.

Theorem return_own s n r : LInv s -> pcs s n = PendDel r ->
  rec (fst (lexec s (AApply n))) = rec s \/
  (rec s = Some r /\ lid r = n /\ rec (fst (lexec s (AApply n))) = None).
Proof.
  intros HI Ep. cbn [lexec]. rewrite Ep.
  destruct (cas_ok (rec s) (lver r)) eqn:Ec; [|left; reflexivity].
  right. repeat split.
  - apply (cas_read s n (Some r) HI); [now rewrite Ep|exact Ec].
  - exact (i_del s HI n r Ep).
Qed.
