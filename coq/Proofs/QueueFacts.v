(* storage/queue.go: the handlers of the event loop never block, answer each waiter at most once, and only for a
   reason (C11).  Per-heap statements with a frame clause: a handler touches only the waiters of its own heap. *)
From Coq Require Import Lia Permutation.
From Verif Require Import Model.Queue Proofs.HeapFacts.

Definition ids (h : list item) : list nat := map it_id h.
Definition ans_ids (a : list (nat * answer)) : list nat := map fst a.

(* hi_empty is what makes every send non-blocking; the other clauses keep it true when an answered waiter's id goes *)
Record HInv (h : list item) (cs : list (nat * chan)) (ans : list (nat * answer)) : Prop := {
  hi_nodup : NoDup (ids h);
  hi_empty : forall x, In x h -> cget cs (it_id x) = ChEmpty;
  hi_unanswered : forall x, In x h -> ~ In (it_id x) (ans_ids ans);
  hi_ans_nodup : NoDup (ans_ids ans)
}.

Lemma cget_cset_same cs i c : cget (cset cs i c) i = c.
Proof.
  induction cs as [|[k c0] r IH]; simpl.
  - now rewrite Nat.eqb_refl.
  - destruct (Nat.eqb_spec k i) as [->|Hk]; simpl.
    + now rewrite Nat.eqb_refl.
    + destruct (Nat.eqb_spec k i); [contradiction|exact IH].
Qed.

Lemma cget_cset_other cs i j c : i <> j -> cget (cset cs i c) j = cget cs j.
Proof.
  intros H. induction cs as [|[k c0] r IH]; simpl.
  - destruct (Nat.eqb_spec i j); [contradiction|reflexivity].
  - destruct (Nat.eqb_spec k i) as [->|Hk]; simpl.
    + destruct (Nat.eqb_spec i j); [contradiction|reflexivity].
    + destruct (Nat.eqb_spec k j); [reflexivity|exact IH].
Qed.

Lemma HInv_perm h h' cs ans : Permutation h h' -> HInv h cs ans -> HInv h' cs ans.
Proof.
  intros Hp [Hn He Hu Ha]. constructor; auto.
  - eapply Permutation_NoDup; [apply Permutation_map; exact Hp|exact Hn].
  - intros x Hx. apply He. eapply Permutation_in; [apply Permutation_sym; exact Hp|exact Hx].
  - intros x Hx. apply Hu. eapply Permutation_in; [apply Permutation_sym; exact Hp|exact Hx].
Qed.

Arguments HInv_perm [h h' cs ans].

Lemma HInv_answer e r cs ans c a : HInv (e :: r) cs ans -> HInv r (cset cs (it_id e) c) (ans ++ [(it_id e, a)]).
Proof.
  intros [Hn He Hu Ha]. cbn in Hn. apply NoDup_cons_iff in Hn. destruct Hn as [Hnot Hn].
  assert (Hne : forall y, In y r -> it_id e <> it_id y) by (intros y Hy E; apply Hnot; rewrite E; now apply in_map).
  constructor.
  - exact Hn.
  - intros y Hy. rewrite cget_cset_other by auto. apply He. now right.
  - intros y Hy. unfold ans_ids. rewrite map_app, in_app_iff. intros [H|[H|[]]]; [apply (Hu y); [now right|exact H]|].
    exact (Hne y Hy H).
  - unfold ans_ids. rewrite map_app. apply (Permutation_NoDup (Permutation_cons_append _ _)).
    constructor; [apply (Hu e); now left|exact Ha].
Qed.

Lemma HInv_cons l cs ans id rev :
  HInv l cs ans -> ~ In id (ids l) -> ~ In id (ans_ids ans) ->
  HInv ({| it_id := id; it_rev := rev |} :: l) (cset cs id ChEmpty) ans.
Proof.
  intros [Hn He Hu Ha] Hid Hans. constructor; auto.
  - cbn. constructor; assumption.
  - intros x [<-|Hx]; cbn; [apply cget_cset_same|].
    rewrite cget_cset_other; [now apply He|]. intro E. apply Hid. rewrite E. now apply in_map.
  - intros x [<-|Hx]; cbn; [exact Hans|now apply Hu].
Qed.

Definition justified (canc : nat -> bool) (rev : option N) (h : list item) (new : list (nat * answer)) : Prop :=
  forall i a, In (i, a) new ->
    exists x, In x h /\ it_id x = i /\
    match a with
    | AErr => canc i = true
    | AOk => canc i = false /\ match rev with Some r => it_rev x <= r | None => False end
    end.

Lemma HInv_push h cs ans id rev :
  HInv h cs ans -> ~ In id (ids h) -> ~ In id (ans_ids ans) ->
  HInv (push item lessi ditem h {| it_id := id; it_rev := rev |}) (cset cs id ChEmpty) ans.
Proof.
  intros HI Hid Hans. apply (HInv_perm (Permutation_sym (push_perm item lessi ditem h _))).
  now apply HInv_cons.
Qed.

(* why waiter x may be told a: the inner match of [justified] *)
Definition reason (canc : nat -> bool) (rev : option N) (x : item) (a : answer) : Prop :=
  match a with
  | AErr => canc (it_id x) = true
  | AOk => canc (it_id x) = false /\ match rev with Some r => it_rev x <= r | None => False end
  end.

Definition answered (canc : nat -> bool) (rev : option N) (h : list item) (ans ans' : list (nat * answer)) : Prop :=
  exists new, ans' = ans ++ new /\ justified canc rev h new.

Lemma answered_refl canc rev h ans : answered canc rev h ans ans.
Proof. exists []. split; [now rewrite app_nil_r|]. intros i a []. Qed.

Lemma answered_trans canc rev h a0 a1 a2 :
  answered canc rev h a0 a1 -> answered canc rev h a1 a2 -> answered canc rev h a0 a2.
Proof.
  intros (n1 & -> & J1) (n2 & -> & J2). exists (n1 ++ n2). split; [now rewrite app_assoc|].
  intros i a H. apply in_app_or in H. destruct H; auto.
Qed.

Lemma answered_incl canc rev h h' a0 a1 : incl h h' -> answered canc rev h a0 a1 -> answered canc rev h' a0 a1.
Proof.
  intros Hi (new & -> & J). exists new. split; [reflexivity|].
  intros i a H. destruct (J i a H) as (x & Hx & R). exists x. auto.
Qed.

Arguments answered_trans {canc rev h a0 a1 a2}.
Arguments answered_incl {canc rev h h' a0 a1}.

Lemma answered_ids canc rev h ans ans' j : answered canc rev h ans ans' -> In j (ans_ids ans') -> In j (ids h) \/ In j (ans_ids ans).
Proof.
  intros (new & -> & J). unfold ans_ids. rewrite map_app, in_app_iff. intros [H|H].
  - now right.
  - left. apply in_map_iff in H. destruct H as ([i a] & <- & H). cbn [fst].
    destruct (J i a H) as (x & Hx & <- & _). now apply in_map.
Qed.

Arguments answered_ids {canc rev h ans ans' j}.

(* What a handler working on heap h may do, whatever its outcome: drop waiters of h, touch their channels only, answer them
   for their reasons.  A preorder generated by "answer the first waiter and drop it". *)
Definition local canc rev (h : list item) (cs : list (nat * chan)) ans (h' : list item) (cs' : list (nat * chan)) ans' : Prop :=
  incl h' h /\ (forall j, ~ In j (ids h) -> cget cs' j = cget cs j) /\ answered canc rev h ans ans'.

Lemma local_incl canc rev h h' cs ans : incl h' h -> local canc rev h cs ans h' cs ans.
Proof. intros Hi. split; [exact Hi|]. split; [reflexivity|apply answered_refl]. Qed.

Arguments local_incl {canc rev h h' cs ans}.

Lemma local_trans canc rev h cs ans h1 cs1 ans1 h2 cs2 ans2 :
  local canc rev h cs ans h1 cs1 ans1 -> local canc rev h1 cs1 ans1 h2 cs2 ans2 -> local canc rev h cs ans h2 cs2 ans2.
Proof.
  intros (Hi1 & Hf1 & Ha1) (Hi2 & Hf2 & Ha2). split; [|split].
  - exact (incl_tran Hi2 Hi1).
  - intros j Hj. rewrite Hf2; [now apply Hf1|]. intros H. exact (Hj (incl_map it_id Hi1 _ H)).
  - exact (answered_trans Ha1 (answered_incl Hi1 Ha2)).
Qed.

Lemma local_answer canc rev e r cs ans c a : reason canc rev e a ->
  local canc rev (e :: r) cs ans r (cset cs (it_id e) c) (ans ++ [(it_id e, a)]).
Proof.
  intros Hw. split; [apply incl_tl, incl_refl|]. split.
  - intros j Hj. apply cget_cset_other. intros E. apply Hj. now left.
  - exists [(it_id e, a)]. split; [reflexivity|]. intros i b [[= <- <-]|[]]. exists e. split; [now left|now split].
Qed.

(* waiters the handler does not work on, in front of its heap and behind it *)
Lemma local_frame canc rev o1 o2 h cs ans h' cs' ans' :
  local canc rev h cs ans h' cs' ans' -> local canc rev (o1 ++ h ++ o2) cs ans (o1 ++ h' ++ o2) cs' ans'.
Proof.
  intros (Hi & Hf & Ha). split; [|split].
  - apply incl_app; [apply incl_appl, incl_refl|apply incl_appr].
    apply incl_app; [apply incl_appl, Hi|apply incl_appr, incl_refl].
  - intros j Hj. apply Hf. intros H. apply Hj. unfold ids. rewrite !map_app, !in_app_iff. right. now left.
  - refine (answered_incl _ Ha). apply incl_appr, incl_appl, incl_refl.
Qed.
Arguments local_trans {canc rev h cs ans h1 cs1 ans1 h2 cs2 ans2}.
Arguments local_frame {canc rev} o1 o2 {h cs ans h' cs' ans'}.

(* the notif arm is a loop that answers the root and pops it, as long as the root has something coming *)
Definition verdict (canc : nat -> bool) (rev : N) (e : item) : option answer :=
  if canc (it_id e) then Some AErr else if it_rev e <=? rev then Some AOk else None.
Definition chan_after (a : answer) : chan := match a with AErr => ChFull | AOk => ChClosed end.

Lemma verdict_why canc rev e a : verdict canc rev e = Some a -> reason canc (Some rev) e a.
Proof.
  unfold verdict, reason. destruct (canc (it_id e)); [now intros [= <-]|].
  destruct (N.leb_spec (it_rev e) rev); [now intros [= <-]|discriminate].
Qed.

Lemma verdict_none canc rev e : verdict canc rev e = None -> rev < it_rev e.
Proof.
  unfold verdict. destruct (canc (it_id e)); [discriminate|].
  destruct (N.leb_spec (it_rev e) rev); [discriminate|auto].
Qed.

(* What the loop returns when run for [fuel] rounds on [n] waiters, for a property P of the state that "answer the root,
   pop it" keeps: P holds, whatever the outcome; an outcome other than Fine comes with a root whose channel was not empty
   (or with more rounds than waiters); the outcome Fine, given a round per waiter, with a root that has nothing coming. *)
Definition loop_post canc rev (P : list item -> list (nat * chan) -> list (nat * answer) -> Prop) (fuel n : nat)
    (res : outcome * list item * list (nat * chan) * list (nat * answer)) : Prop :=
  let '(o, h', cs', ans') := res in
  P h' cs' ans' /\
  (o <> Fine -> match h' with [] => (n < fuel)%nat | e :: _ => cget cs' (it_id e) <> ChEmpty end) /\
  (o = Fine -> (n <= fuel)%nat -> match h' with [] => True | e :: _ => verdict canc rev e = None end).

(* the one induction over the loop *)
Lemma notify_loop_rule canc rev (P : list item -> list (nat * chan) -> list (nat * answer) -> Prop) :
  (forall e r h1 cs ans a, P (e :: r) cs ans -> verdict canc rev e = Some a ->
     pop item lessi ditem (e :: r) = Some (e, h1) -> Permutation h1 r ->
     P h1 (cset cs (it_id e) (chan_after a)) (ans ++ [(it_id e, a)])) ->
  forall fuel h cs ans, P h cs ans -> loop_post canc rev P fuel (length h) (notify_loop fuel canc rev h cs ans).
Proof.
  intros Hstep. induction fuel as [|f IH]; intros h cs ans HP; cbn [notify_loop].
  { split; [exact HP|]. split; [congruence|]. intros _ Hl. destruct h; [exact I|cbn in Hl; lia]. }
  destruct h as [|e r]; cbn [peek].
  { split; [exact HP|]. split; [cbn; lia|discriminate]. }
  (* the loop stops at this root ... *)
  assert (Hstop : forall o, (o = Fine -> verdict canc rev e = None) -> (o <> Fine -> cget cs (it_id e) <> ChEmpty) ->
            loop_post canc rev P (S f) (length (e :: r)) (o, e :: r, cs, ans)) by (intros o H1 H2; cbn; auto).
  (* ... or goes on *)
  destruct (pop_cons item lessi ditem e r) as (h1 & Ep & Hp). rewrite Ep.
  assert (Hgo : forall a, verdict canc rev e = Some a -> loop_post canc rev P (S f) (length (e :: r))
            (notify_loop f canc rev h1 (cset cs (it_id e) (chan_after a)) (ans ++ [(it_id e, a)]))).
  { intros a Hv. specialize (IH _ _ _ (Hstep _ _ _ _ _ _ HP Hv Ep Hp)). rewrite (Permutation_length Hp) in IH.
    destruct (notify_loop f _ _ _ _ _) as [[[o h'] cs'] ans']. destruct IH as (H1 & H2 & H3). cbn [length].
    split; [exact H1|]. split.
    - intros Ho. specialize (H2 Ho). destruct h'; [lia|exact H2].
    - intros Ho Hl. apply H3; [exact Ho|lia]. }
  unfold verdict in Hstop, Hgo. unfold send_err. destruct (canc (it_id e)).
  - (* expired: an error is sent, which needs an empty channel *)
    destruct (cget cs (it_id e)) eqn:Ec.
    + now apply (Hgo AErr).
    + apply Hstop; [discriminate|congruence].
    + apply Hstop; [discriminate|congruence].
  - destruct (it_rev e <=? rev); [|now apply (Hstop Fine)].
    (* reached: the channel is closed, which needs one not closed yet *)
    destruct (cget cs (it_id e)) eqn:Ec.
    + now apply (Hgo AOk).
    + now apply (Hgo AOk).
    + apply Hstop; [discriminate|congruence].
Qed.

Lemma notify_loop_local canc rev fuel h cs ans o h' cs' ans' : notify_loop fuel canc rev h cs ans = (o, h', cs', ans') ->
  local canc (Some rev) h cs ans h' cs' ans'.
Proof.
  intros E.
  assert (Hstep : forall e r h1 cs1 ans1 a, local canc (Some rev) h cs ans (e :: r) cs1 ans1 ->
            verdict canc rev e = Some a -> pop item lessi ditem (e :: r) = Some (e, h1) -> Permutation h1 r ->
            local canc (Some rev) h cs ans h1 (cset cs1 (it_id e) (chan_after a)) (ans1 ++ [(it_id e, a)])).
  { intros e r h1 cs1 ans1 a HP Hv _ Hp. apply (local_trans HP).
    apply @local_trans with (h1 := r) (cs1 := cset cs1 (it_id e) (chan_after a)) (ans1 := ans1 ++ [(it_id e, a)]).
    - apply local_answer, verdict_why, Hv.
    - apply local_incl. intros y. apply (Permutation_in _ Hp). }
  pose proof (notify_loop_rule canc rev _ Hstep fuel h cs ans (local_incl (incl_refl h))) as R.
  rewrite E in R. apply R.
Qed.

Arguments notify_loop_local {canc rev fuel h cs ans o h' cs' ans'}.

(* with the other waiters of the state in o, so that the statement composes over the table map *)
Lemma notify_loop_fine canc rev fuel h o cs ans : (fuel <= length h)%nat -> HInv (h ++ o) cs ans ->
  exists h' cs' ans', notify_loop fuel canc rev h cs ans = (Fine, h', cs', ans') /\ HInv (h' ++ o) cs' ans'.
Proof.
  intros Hf HI.
  assert (Hstep : forall e r h1 cs1 ans1 a, HInv ((e :: r) ++ o) cs1 ans1 ->
            verdict canc rev e = Some a -> pop item lessi ditem (e :: r) = Some (e, h1) -> Permutation h1 r ->
            HInv (h1 ++ o) (cset cs1 (it_id e) (chan_after a)) (ans1 ++ [(it_id e, a)])).
  { intros e r h1 cs1 ans1 a H1 _ _ Hp.
    apply (HInv_perm (Permutation_app_tail o (Permutation_sym Hp))), HInv_answer, H1. }
  pose proof (notify_loop_rule canc rev (fun h1 cs1 ans1 => HInv (h1 ++ o) cs1 ans1) Hstep fuel h cs ans HI) as R.
  destruct (notify_loop fuel canc rev h cs ans) as [[[out h'] cs'] ans']. destruct R as (HI' & Hout & _).
  exists h', cs', ans'. split; [|exact HI'].
  (* an outcome other than Fine would come with a root whose channel is not empty *)
  assert (Hfine : ~ out <> Fine).
  { intros Hne. specialize (Hout Hne). destruct h' as [|e r]; [lia|]. apply Hout, (hi_empty _ _ _ HI'). now left. }
  destruct out; [reflexivity|elim Hfine; discriminate..].
Qed.

Arguments notify_loop_fine canc rev {fuel h} o {cs ans}.

Lemma notify_loop_never_blocks canc rev fuel : forall h cs ans, (fuel <= length h)%nat -> HInv h cs ans ->
  exists h' cs' new,
    notify_loop fuel canc rev h cs ans = (Fine, h', cs', ans ++ new) /\
    HInv h' cs' (ans ++ new) /\
    (forall j, ~ In j (ids h) -> cget cs' j = cget cs j) /\
    (forall y, In y h' -> In y h) /\
    justified canc (Some rev) h new.
Proof.
  intros h cs ans Hf HI. rewrite <- (app_nil_r h) in HI.
  destruct (notify_loop_fine canc rev [] Hf HI) as (h' & cs' & ans' & E & HI'). rewrite app_nil_r in HI'.
  destruct (notify_loop_local E) as (Hi & Hfr & new & -> & Hj). now exists h', cs', new.
Qed.

Lemma sweep_scan_local canc : forall h cs ans o live cs' ans', sweep_scan canc h cs ans = (o, live, cs', ans') ->
  local canc None h cs ans live cs' ans'.
Proof.
  induction h as [|e r IH]; intros cs ans o live cs' ans' E; cbn [sweep_scan] in E.
  { injection E as <- <- <- <-. apply local_incl, incl_refl. }
  destruct (canc (it_id e)) eqn:Ec.
  - unfold send_err in E. destruct (cget cs (it_id e)).
    + exact (local_trans (local_answer canc None e r cs ans ChFull AErr Ec) (IH _ _ _ _ _ _ E)).
    + injection E as <- <- <- <-. apply local_incl, incl_refl.
    + injection E as <- <- <- <-. apply local_incl, incl_refl.
  - destruct (sweep_scan canc r cs ans) as [[[o1 l1] c1] a1] eqn:E1. injection E as <- <- <- <-.
    pose proof (local_frame [e] [] (IH _ _ _ _ _ _ E1)) as L. rewrite !app_nil_r in L. exact L.
Qed.

Arguments sweep_scan_local {canc h cs ans o live cs' ans'}.

Lemma sweep_scan_fine canc : forall h o cs ans, HInv (h ++ o) cs ans ->
  exists cs' ans', sweep_scan canc h cs ans = (Fine, filter (fun x => negb (canc (it_id x))) h, cs', ans') /\
    HInv (filter (fun x => negb (canc (it_id x))) h ++ o) cs' ans'.
Proof.
  induction h as [|e r IH]; intros o cs ans HI; cbn [sweep_scan filter]; [now exists cs, ans|].
  destruct (canc (it_id e)); cbn [negb].
  - unfold send_err. rewrite (hi_empty _ _ _ HI e (or_introl eq_refl)). apply IH, HInv_answer, HI.
  - (* a live waiter: set it aside among the others *)
    destruct (IH (e :: o) cs ans) as (cs' & ans' & -> & HI'); [exact (HInv_perm (Permutation_middle r o e) HI)|].
    exists cs', ans'. split; [reflexivity|]. exact (HInv_perm (Permutation_sym (Permutation_middle _ o e)) HI').
Qed.

Arguments sweep_scan_fine canc {h} o {cs ans}.

Lemma sweep_scan_never_blocks canc : forall h cs ans, HInv h cs ans ->
  exists cs' new,
    sweep_scan canc h cs ans = (Fine, filter (fun x => negb (canc (it_id x))) h, cs', ans ++ new) /\
    HInv (filter (fun x => negb (canc (it_id x))) h) cs' (ans ++ new) /\
    (forall j, ~ In j (ids h) -> cget cs' j = cget cs j) /\
    justified canc None h new.
Proof.
  intros h cs ans HI. rewrite <- (app_nil_r h) in HI.
  destruct (sweep_scan_fine canc [] HI) as (cs' & ans' & E & HI'). rewrite app_nil_r in HI'.
  destruct (sweep_scan_local E) as (_ & Hfr & new & -> & Hj). now exists cs', new.
Qed.

Lemma sweep_leaves_live canc h x :
  In x (heapify item lessi ditem (filter (fun x => negb (canc (it_id x))) h)) <-> In x h /\ canc (it_id x) = false.
Proof.
  rewrite <- negb_true_iff, <- (filter_In (fun x => negb (canc (it_id x)))).
  split; apply Permutation_in; [|apply Permutation_sym]; apply heapify_perm.
Qed.
