From Coq Require Import Lia Permutation.
From Verif Require Import Model.Catalogue Proofs.BytesFacts.

Definition cur (s : cst) : N := match c_seq s with Some (v, _) => v | None => start_id end.
(* the id a program has drawn from the sequence and not yet handed to (or lost for) a table *)
Definition ids_of (p : cpc) : list N :=
  match p with CCreate3 _ id => [id] | CRest3 _ _ _ id => [id] | CRest4 _ id => [id] | CRest5 _ id _ => [id] | _ => [] end.
(* the value and version of the sequence a program has read and is about to write back *)
Definition seqread (p : cpc) : option (N * N) :=
  match p with CCreate2 _ v w => Some (v, w) | CRest2 _ _ _ v w => Some (v, w) | _ => None end.
Definition pending_ids (l : list cpc) : list N := flat_map ids_of l.
Definition all_ids (s : cst) : list N := c_created s ++ pending_ids (c_pcs s).

(* the ids held by the programs before and after one of them is replaced, counted *)
Lemma count_set_pc x l : forall m q, (m < length l)%nat ->
  (count_occ N.eq_dec (pending_ids (set_pc l m q)) x + count_occ N.eq_dec (ids_of (get_pc l m)) x =
   count_occ N.eq_dec (pending_ids l) x + count_occ N.eq_dec (ids_of q) x)%nat.
Proof.
  unfold get_pc. induction l as [|p r IH]; intros m q Hm; [cbn in Hm; lia|].
  destruct m as [|m]; cbn [set_pc nth pending_ids flat_map]; rewrite !count_occ_app.
  - lia.
  - cbn [length] in Hm. specialize (IH m q ltac:(lia)). unfold pending_ids in IH. lia.
Qed.

Lemma in_set_pc l : forall m q p, In p (set_pc l m q) -> p = q \/ In p l.
Proof.
  induction l as [|x r IH]; intros [|m] q p H; simpl in *; auto.
  - destruct H; auto.
  - destruct H as [H|H]; [auto|]. destruct (IH m q p H); auto.
Qed.

Lemma get_pc_in l m : get_pc l m <> CIdle -> In (get_pc l m) l /\ (m < length l)%nat.
Proof.
  unfold get_pc. revert m; induction l as [|x r IH]; intros [|m] H; simpl in *; try congruence; auto.
  - split; [auto|lia].
  - destruct (IH m H). split; [auto|lia].
Qed.

(* What a program that has read (v, w) from the sequence relies on.  Versions are log indices and no index is written
   twice, so while the sequence carries version w it carries the value v: a compare-and-set that succeeds is never
   an ABA.  An absent sequence reads as (start_id, 0). *)
Definition seq_ok (s : cst) (v w : N) : Prop :=
  w < c_next s /\ start_id <= v <= cur s /\ (forall x, c_seq s = Some (x, w) -> x = v) /\ (c_seq s = None -> v = start_id).

Record CInv (s : cst) : Prop := {
  j_next : 1 <= c_next s;
  j_seq : forall v w, c_seq s = Some (v, w) -> 1 <= w < c_next s /\ start_id < v;
  j_tabv : forall n r w, tget (c_tabs s) n = Some (r, w) -> 1 <= w < c_next s;
  j_c2 : forall p v w, In p (c_pcs s) -> seqread p = Some (v, w) -> seq_ok s v w;
  (* an id a program loses (AFail, a refused compare-and-set) leaves all_ids: a recovery id left behind in a record
     is not bounded here *)
  j_ids : forall id, In id (all_ids s) -> start_id < id <= cur s;
  j_nodup : NoDup (all_ids s)
}.

Lemma pending_idle k : pending_ids (repeat CIdle k) = [].
Proof. induction k; auto. Qed.

Lemma CInv0 k : CInv (cst0 k).
Proof.
  constructor; simpl.
  - (* j_next *) lia.
  - (* j_seq: no sequence yet *) discriminate.
  - (* j_tabv: no records *) discriminate.
  - (* j_c2: nobody has read *) intros p v w H. apply repeat_spec in H. subst p. discriminate.
  - (* j_ids *) unfold all_ids; simpl. rewrite pending_idle. intros id [].
  - (* j_nodup *) unfold all_ids; simpl. rewrite pending_idle. constructor.
Qed.

Lemma tget_tset l k v k' : tget (tset l k v) k' = if k =? k' then Some v else tget l k'.
Proof.
  unfold tset. simpl. destruct (k =? k') eqn:E; [reflexivity|].
  induction l as [|[k0 v0] r IH]; simpl; [reflexivity|].
  destruct (N.eqb_spec k0 k) as [->|Hne]; [now rewrite E|].
  simpl. destruct (k0 =? k'); auto.
Qed.
Lemma tget_tdel l k k' : tget (tdel l k) k' = if k =? k' then None else tget l k'.
Proof.
  induction l as [|[k0 v0] r IH]; simpl; [now destruct (k =? k')|].
  destruct (N.eqb_spec k0 k) as [->|Hne].
  - rewrite IH. destruct (N.eqb_spec k k'); reflexivity.
  - simpl. destruct (N.eqb_spec k0 k'); [|exact IH]. subst. destruct (N.eqb_spec k k'); [congruence|reflexivity].
Qed.

(* One step of manager m, seen from the ids: its program held ids_of (get_pc .. m) and now holds ids_of q, having
   handed [extra] to tables, lost [dropped] and newly drawn [fresh].  What bounds all ids before, the fresh ones
   included, bounds them afterwards, and no id comes to occur twice.  The lists involved are concatenations of the
   same pieces in different orders, so the permutation is shown by counting occurrences. *)
Lemma ids_step (s s' : cst) m q extra dropped fresh hi :
  c_pcs s' = set_pc (c_pcs s) m q -> c_created s' = extra ++ c_created s -> (m < length (c_pcs s))%nat ->
  Permutation (fresh ++ ids_of (get_pc (c_pcs s) m)) (dropped ++ extra ++ ids_of q) ->
  (forall id, In id (fresh ++ all_ids s) -> start_id < id <= hi) -> NoDup (fresh ++ all_ids s) ->
  (forall id, In id (all_ids s') -> start_id < id <= hi) /\ NoDup (all_ids s').
Proof.
  intros Hp Hc Hm P Hi Hn.
  assert (P2 : Permutation (fresh ++ all_ids s) (dropped ++ all_ids s')).
  { apply (Permutation_count_occ N.eq_dec). intros x.
    apply (Permutation_count_occ N.eq_dec) with (x := x) in P.
    pose proof (count_set_pc x (c_pcs s) m q Hm) as C.
    unfold all_ids. rewrite Hp, Hc. rewrite !count_occ_app in *. lia. }
  split.
  - intros id H. apply Hi. apply (Permutation_in _ (Permutation_sym P2)), in_or_app. now right.
  - now apply (Permutation_NoDup P2), NoDup_app_inv in Hn.
Qed.

(* what a read of the id sequence returns *)
Definition sver_of (s : cst) : N := match c_seq s with Some (_, w) => w | None => 0 end.
Lemma read_seq {A} s (f : N -> N -> A) :
  match c_seq s with Some (v, w) => f v w | None => f start_id 0 end = f (cur s) (sver_of s).
Proof. unfold cur, sver_of. now destruct (c_seq s) as [[v w]|]. Qed.

Lemma seq_ok_now s : CInv s -> seq_ok s (cur s) (sver_of s).
Proof.
  intros HI. unfold seq_ok, cur, sver_of. destruct (c_seq s) as [[v w]|] eqn:Es.
  - destruct (j_seq s HI v w Es) as [Hw Hv]. split; [lia|]. split; [lia|]. split.
    + now intros x [= ->].
    + discriminate.
  - pose proof (j_next s HI) as Hn. split; [lia|]. split; [lia|]. split.
    + discriminate.
    + now intros _.
Qed.

Lemma cas_seq_cur s v w : seq_ok s v w -> cas_seq s w = true -> v = cur s.
Proof.
  intros (_ & _ & Huniq & Hnone) Ec. unfold cas_seq in Ec. unfold cur. destruct (c_seq s) as [[x w0]|].
  - apply N.eqb_eq in Ec. subst w0. symmetry. now apply Huniq.
  - now apply Hnone.
Qed.

(* only the program counter of one manager changes: it may drop ids it held, it may not invent any *)
Lemma inv_pc s m q dropped : CInv s -> (m < length (c_pcs s))%nat ->
  Permutation (ids_of (get_pc (c_pcs s) m)) (dropped ++ ids_of q) ->
  (forall v w, seqread q = Some (v, w) -> seq_ok s v w) ->
  CInv (with_pc s m q).
Proof.
  intros [Hn Hs Ht H2 Hids Hnd] Hm P Hq.
  destruct (ids_step s (with_pc s m q) m q [] dropped [] (cur s) eq_refl eq_refl Hm P Hids Hnd) as [Hids' Hnd'].
  constructor; cbn [with_pc c_next c_seq c_tabs c_pcs]; auto.
  intros p v w Hin Hsr. apply in_set_pc in Hin. destruct Hin as [-> |Hin]; [now apply Hq|]. exact (H2 p v w Hin Hsr).
Qed.

(* one store write to a table record (or a failed compare-and-set, or a delete): the log index advances, every
   record of the new table list is an old one or carries the new version *)
Lemma inv_write s m q tabs' extra dropped : CInv s -> (m < length (c_pcs s))%nat ->
  Permutation (ids_of (get_pc (c_pcs s) m)) (dropped ++ extra ++ ids_of q) ->
  seqread q = None ->
  (forall n r w, tget tabs' n = Some (r, w) -> tget (c_tabs s) n = Some (r, w) \/ w = c_next s) ->
  CInv {| c_seq := c_seq s; c_tabs := tabs'; c_next := c_next s + 1; c_pcs := set_pc (c_pcs s) m q; c_created := extra ++ c_created s |}.
Proof.
  intros [Hn Hs Ht H2 Hids Hnd] Hm P Hq Htab.
  match goal with |- CInv ?x => destruct (ids_step s x m q extra dropped [] (cur s) eq_refl eq_refl Hm P Hids Hnd) as [Hids' Hnd'] end.
  constructor; cbn [c_next c_seq c_tabs c_pcs].
  - lia.
  - intros v w Hv. specialize (Hs v w Hv). lia.
  - intros n r w Hr. destruct (Htab n r w Hr) as [H| ->]; [specialize (Ht n r w H); lia|lia].
  - intros p v w Hin Hsr. apply in_set_pc in Hin. destruct Hin as [-> |Hin]; [congruence|].
    destruct (H2 p v w Hin Hsr) as (A & B & C & D). unfold seq_ok, cur; cbn [c_next c_seq]. fold (cur s).
    repeat split; auto; lia.
  - exact Hids'.
  - exact Hnd'.
Qed.

(* the id sequence is advanced by a successful compare-and-set: the new id is above every id handed out so far *)
Lemma inv_seq s m q v w : CInv s -> (m < length (c_pcs s))%nat ->
  In (get_pc (c_pcs s) m) (c_pcs s) -> seqread (get_pc (c_pcs s) m) = Some (v, w) -> cas_seq s w = true ->
  ids_of (get_pc (c_pcs s) m) = [] -> ids_of q = [v + 1] -> seqread q = None ->
  CInv {| c_seq := Some (v + 1, c_next s); c_tabs := c_tabs s; c_next := c_next s + 1; c_pcs := set_pc (c_pcs s) m q; c_created := c_created s |}.
Proof.
  intros [Hn Hs Ht H2 Hids Hnd] Hm Hin Hsr Ec Hold Hq Hqs.
  pose proof (H2 _ v w Hin Hsr) as Hok. pose proof (cas_seq_cur s v w Hok Ec) as Hcur. destruct Hok as (_ & Hvc & _).
  match goal with |- CInv ?x => destruct (ids_step s x m q [] [] [v + 1] (v + 1) eq_refl eq_refl Hm) as [Hids' Hnd'] end.
  { rewrite Hold, Hq. apply Permutation_refl. }
  { intros id [<-|H]; [lia|]. specialize (Hids id H). lia. }
  { constructor; [|exact Hnd]. intro H. specialize (Hids _ H). lia. }
  constructor; cbn [c_next c_seq c_tabs c_pcs]; [lia| | | |exact Hids'|exact Hnd'].
  - intros v0 w0 [= <- <-]. lia.
  - intros n r w0 Hr. specialize (Ht n r w0 Hr). lia.
  - intros p v0 w0 Hin0 Hsr0. apply in_set_pc in Hin0. destruct Hin0 as [-> |Hin0]; [congruence|].
    destruct (H2 p v0 w0 Hin0 Hsr0) as (A & B & C & D). unfold seq_ok, cur; cbn [c_next c_seq].
    split; [lia|]. split; [lia|]. split; [intros x [= <- E]; lia|discriminate].
Qed.

Lemma tset_tabs s name rv n r w : tget (tset (c_tabs s) name (rv, c_next s)) n = Some (r, w) ->
  tget (c_tabs s) n = Some (r, w) \/ w = c_next s.
Proof. rewrite tget_tset. destruct (name =? n); [intros [= _ <-]; now right|now left]. Qed.
Lemma tdel_tabs s name n r w : tget (tdel (c_tabs s) name) n = Some (r, w) ->
  tget (c_tabs s) n = Some (r, w) \/ w = c_next s.
Proof. rewrite tget_tdel. destruct (name =? n); [discriminate|now left]. Qed.

Lemma set_pc_out l : forall m q, (length l <= m)%nat -> set_pc l m q = l.
Proof.
  induction l as [|x r IH]; intros [|m] q H; cbn in *; try reflexivity.
  - lia.
  - f_equal. apply IH. lia.
Qed.

Lemma inv_start s m q : CInv s -> get_pc (c_pcs s) m = CIdle -> ids_of q = [] -> seqread q = None -> CInv (with_pc s m q).
Proof.
  intros HI Ep Hq1 Hq2. destruct (Nat.ltb_spec m (length (c_pcs s))) as [Hm|Hm].
  - apply (inv_pc s m q []); [exact HI|exact Hm|rewrite Ep, Hq1; apply Permutation_refl|rewrite Hq2; discriminate].
  - unfold with_pc. rewrite set_pc_out by exact Hm. now destruct s.
Qed.

Lemma inv_fail s m : CInv s -> get_pc (c_pcs s) m <> CIdle ->
  CInv {| c_seq := c_seq s; c_tabs := c_tabs s; c_next := c_next s + 1; c_pcs := set_pc (c_pcs s) m CIdle; c_created := c_created s |}.
Proof.
  intros HI Hp. apply (inv_write s m CIdle (c_tabs s) [] (ids_of (get_pc (c_pcs s) m))).
  - exact HI.
  - now apply get_pc_in.
  - cbn [ids_of app]. rewrite app_nil_r. apply Permutation_refl.
  - reflexivity.
  - now left.
Qed.

Theorem cexec_inv s a : CInv s -> CInv (fst (cexec s a)).
Proof.
  intros HI. destruct a as [m name|m name|m name|m|m|m]; cbn [cexec].
  - (* Create: Exists *)
    destruct (get_pc (c_pcs s) m) eqn:Ep; try exact HI.
    destruct (tget (c_tabs s) name); [exact HI|]. now apply inv_start.
  - (* Delete: Get *)
    destruct (get_pc (c_pcs s) m) eqn:Ep; try exact HI.
    destruct (tget (c_tabs s) name) as [[r ver]|]; [|exact HI]. now apply inv_start.
  - (* Restore: Get *)
    destruct (get_pc (c_pcs s) m) eqn:Ep; try exact HI.
    destruct (tget (c_tabs s) name) as [[r ver]|]; now apply inv_start.
  - (* the stream of a restore breaks off *)
    destruct (get_pc (c_pcs s) m) as [| | | | | | | |name id|] eqn:Ep; try exact HI.
    apply (inv_pc s m _ [id]); [exact HI|apply get_pc_in; congruence|rewrite Ep; apply Permutation_refl|discriminate].
  - (* the next store operation of a running program *)
    assert (Hlt : get_pc (c_pcs s) m <> CIdle -> (m < length (c_pcs s))%nat) by (intros H; now apply get_pc_in).
    assert (Hin : get_pc (c_pcs s) m <> CIdle -> In (get_pc (c_pcs s) m) (c_pcs s)) by (intros H; now apply get_pc_in).
    pose proof (inv_fail s m HI) as Hfail.
    (* in each case below Hlt, Hin and Hfail speak of the program counter at hand, which is not CIdle *)
    destruct (get_pc (c_pcs s) m) as [|name|name v ver|name id|name ver|name r ver|name r ver v sver|name r ver id|name id|name id ver] eqn:Ep.
    + exact HI.
    + (* create: read the sequence *)
      rewrite read_seq. apply (inv_pc s m _ []); [exact HI|apply Hlt; discriminate|rewrite Ep; apply Permutation_refl|].
      intros v w [= <- <-]. now apply seq_ok_now.
    + (* create: advance the sequence *)
      destruct (cas_seq s ver) eqn:Ec; [|apply Hfail; discriminate].
      apply (inv_seq s m _ v ver);
        [exact HI|apply Hlt; discriminate|rewrite Ep; apply Hin; discriminate|now rewrite Ep|exact Ec|now rewrite Ep|reflexivity|reflexivity].
    + (* create: write the record with version 0 *)
      destruct (cas_tab s name 0); [|apply Hfail; discriminate].
      apply (inv_write s m CIdle _ [id] []); [exact HI|apply Hlt; discriminate|rewrite Ep; apply Permutation_refl|reflexivity|apply tset_tabs].
    + (* delete the record *)
      destruct (cas_tab s name ver); [|apply Hfail; discriminate].
      apply (inv_write s m CIdle _ [] []); [exact HI|apply Hlt; discriminate|rewrite Ep; apply Permutation_refl|reflexivity|apply tdel_tabs].
    + (* restore: read the sequence *)
      rewrite read_seq. apply (inv_pc s m _ []); [exact HI|apply Hlt; discriminate|rewrite Ep; apply Permutation_refl|].
      intros v w [= <- <-]. now apply seq_ok_now.
    + (* restore: advance the sequence *)
      destruct (cas_seq s sver) eqn:Ec; [|apply Hfail; discriminate].
      apply (inv_seq s m _ v sver);
        [exact HI|apply Hlt; discriminate|rewrite Ep; apply Hin; discriminate|now rewrite Ep|exact Ec|now rewrite Ep|reflexivity|reflexivity].
    + (* restore: register the recovery shard in the record *)
      destruct (cas_tab s name ver); [|apply Hfail; discriminate].
      apply (inv_write s m (CRest4 name id) _ [] []); [exact HI|apply Hlt; discriminate|rewrite Ep; apply Permutation_refl|reflexivity|apply tset_tabs].
    + (* restore: stream loaded, read the record again; the id is lost if the record is gone *)
      destruct (tget (c_tabs s) name) as [[r ver]|].
      * apply (inv_pc s m _ []); [exact HI|apply Hlt; discriminate|rewrite Ep; apply Permutation_refl|discriminate].
      * apply (inv_pc s m _ [id]); [exact HI|apply Hlt; discriminate|rewrite Ep; apply Permutation_refl|discriminate].
    + (* restore: switch the table to the recovery shard *)
      destruct (cas_tab s name ver); [|apply Hfail; discriminate].
      apply (inv_write s m CIdle _ [id] []); [exact HI|apply Hlt; discriminate|rewrite Ep; apply Permutation_refl|reflexivity|apply tset_tabs].
  - destruct (get_pc (c_pcs s) m); exact HI.
Qed.

Lemma crun_inv acts : forall s, CInv s -> CInv (fst (crun s acts)).
Proof.
  induction acts as [|a r IH]; intros s H; cbn [crun]; [exact H|].
  pose proof (cexec_inv s a H) as H1. destruct (cexec s a) as [s1 o]. cbn [fst] in H1.
  specialize (IH s1 H1). destruct (crun s1 r) as [s2 os]. exact IH.
Qed.

Theorem ids_never_reused k acts :
  let s := fst (crun (cst0 k) acts) in NoDup (c_created s) /\ forall id, In id (c_created s) -> start_id < id <= cur s.
Proof.
  intros s. pose proof (crun_inv acts (cst0 k) (CInv0 k)) as HI. fold s in HI. split.
  - apply (NoDup_app_inv _ _ (j_nodup s HI)).
  - intros id Hin. apply (j_ids s HI), in_or_app. now left.
Qed.

Theorem held_id_fresh s m id : CInv s -> In id (ids_of (get_pc (c_pcs s) m)) -> ~ In id (c_created s).
Proof.
  intros HI Hid Hin.
  assert (Hne : get_pc (c_pcs s) m <> CIdle) by (intro E; rewrite E in Hid; contradiction).
  destruct (NoDup_app_inv _ _ (j_nodup s HI)) as (_ & _ & Hdisj). apply (Hdisj id Hin).
  apply in_flat_map. exists (get_pc (c_pcs s) m). split; [now apply get_pc_in|exact Hid].
Qed.

Theorem drawn_id_above s m v w : CInv s -> In (get_pc (c_pcs s) m) (c_pcs s) ->
  seqread (get_pc (c_pcs s) m) = Some (v, w) -> cas_seq s w = true ->
  forall id, In id (all_ids s) -> id < v + 1.
Proof.
  intros HI Hin Hsr Ec id Hid. rewrite (cas_seq_cur s v w (j_c2 s HI _ v w Hin Hsr) Ec).
  pose proof (j_ids s HI id Hid). lia.
Qed.

Lemma get_set_pc l : forall m q, (m < length l)%nat -> get_pc (set_pc l m q) m = q.
Proof.
  unfold get_pc. induction l as [|x r IH]; intros [|m] q H; cbn in *; try lia.
  - reflexivity.
  - apply IH. lia.
Qed.
Lemma set_pc_length l : forall m q, length (set_pc l m q) = length l.
Proof. induction l as [|x r IH]; intros [|m] q; cbn; auto. Qed.
Lemma set_set_pc l : forall m q q', set_pc (set_pc l m q) m q' = set_pc l m q'.
Proof. induction l as [|x r IH]; intros [|m] q q'; cbn; auto. f_equal. apply IH. Qed.

Theorem restore_switch s m name id ver : get_pc (c_pcs s) m = CRest5 name id ver -> cas_tab s name ver = true ->
  snd (cexec s (AStep m)) = CRRestored id /\
  tget (c_tabs (fst (cexec s (AStep m)))) name = Some ({| t_cluster := id; t_recover := 0 |}, c_next s) /\
  c_created (fst (cexec s (AStep m))) = id :: c_created s.
Proof. intros Ep Ec. cbn [cexec]. rewrite Ep, Ec. cbn [fst snd c_tabs c_created]. rewrite tget_tset, N.eqb_refl. auto. Qed.

Lemma cas_seq_now s : cas_seq s (sver_of s) = true.
Proof. unfold cas_seq, sver_of. destruct (c_seq s) as [[v w]|]; [apply N.eqb_refl|reflexivity]. Qed.

(* what the Get of a table record returns to Restore: the zero record with version 0 if there is none *)
Definition tread (s : cst) (name : N) : trec * N :=
  match tget (c_tabs s) name with Some rv => rv | None => ({| t_cluster := 0; t_recover := 0 |}, 0) end.
Lemma cas_tab_now s name : cas_tab s name (snd (tread s name)) = true.
Proof. unfold cas_tab, tread. destruct (tget (c_tabs s) name) as [[r w]|]; [apply N.eqb_refl|reflexivity]. Qed.

(* the store after a successful Set of the sequence, of a table record (whose id, if any, counts as given from then on) *)
Definition put_seq (s : cst) (v : N) : cst :=
  {| c_seq := Some (v, c_next s); c_tabs := c_tabs s; c_next := c_next s + 1; c_pcs := c_pcs s; c_created := c_created s |}.
Definition put_tab (s : cst) (name : N) (r : trec) (given : list N) : cst :=
  {| c_seq := c_seq s; c_tabs := tset (c_tabs s) name (r, c_next s); c_next := c_next s + 1; c_pcs := c_pcs s;
     c_created := given ++ c_created s |}.

Lemma tget_put_tab s name r given : tget (c_tabs (put_tab s name r given)) name = Some (r, c_next s).
Proof. cbn [put_tab c_tabs]. now rewrite tget_tset, N.eqb_refl. Qed.
Lemma cas_put_tab s name r given : cas_tab (put_tab s name r given) name (c_next s) = true.
Proof. unfold cas_tab. rewrite tget_put_tab. apply N.eqb_refl. Qed.

(* The steps of a running Restore, from a state written as [with_pc s m p]: the state after the step has this form
   again, over a store with the same managers, so the steps chain without a word about the list of program counters *)
Lemma rstep0 s m name : get_pc (c_pcs s) m = CIdle ->
  cexec s (ARestore m name) = (with_pc s m (CRest1 name (fst (tread s name)) (snd (tread s name))), CRNone).
Proof. intros Ep. cbn [cexec]. rewrite Ep. unfold tread. now destruct (tget (c_tabs s) name) as [[r ver]|]. Qed.

Lemma rstep1 s m name r ver : (m < length (c_pcs s))%nat ->
  cexec (with_pc s m (CRest1 name r ver)) (AStep m) = (with_pc s m (CRest2 name r ver (cur s) (sver_of s)), CRNone).
Proof.
  intros Hm. unfold with_pc. cbn [cexec c_pcs c_seq c_tabs c_next c_created].
  rewrite (get_set_pc _ _ _ Hm), read_seq. unfold with_pc. cbn [c_pcs c_seq c_tabs c_next c_created].
  now rewrite set_set_pc.
Qed.

Lemma rstep2 s m name r ver : (m < length (c_pcs s))%nat ->
  cexec (with_pc s m (CRest2 name r ver (cur s) (sver_of s))) (AStep m) =
  (with_pc (put_seq s (cur s + 1)) m (CRest3 name r ver (cur s + 1)), CRNone).
Proof.
  intros Hm. unfold with_pc, put_seq. cbn [cexec c_pcs c_seq c_tabs c_next c_created].
  rewrite (get_set_pc _ _ _ Hm). change (cas_seq _ (sver_of s)) with (cas_seq s (sver_of s)).
  now rewrite cas_seq_now, set_set_pc.
Qed.

Lemma rstep3 s m name r ver id : (m < length (c_pcs s))%nat -> cas_tab s name ver = true ->
  cexec (with_pc s m (CRest3 name r ver id)) (AStep m) =
  (with_pc (put_tab s name {| t_cluster := t_cluster r; t_recover := id |} []) m (CRest4 name id), CRNone).
Proof.
  intros Hm Ec. unfold with_pc, put_tab. cbn [cexec c_pcs c_seq c_tabs c_next c_created].
  rewrite (get_set_pc _ _ _ Hm). change (cas_tab _ name ver) with (cas_tab s name ver).
  now rewrite Ec, set_set_pc.
Qed.

Lemma rstep4 s m name id r ver : (m < length (c_pcs s))%nat -> tget (c_tabs s) name = Some (r, ver) ->
  cexec (with_pc s m (CRest4 name id)) (AStep m) = (with_pc s m (CRest5 name id ver), CRNone).
Proof.
  intros Hm Et. unfold with_pc. cbn [cexec c_pcs c_seq c_tabs c_next c_created].
  rewrite (get_set_pc _ _ _ Hm), Et. unfold with_pc. cbn [c_pcs c_seq c_tabs c_next c_created].
  now rewrite set_set_pc.
Qed.

Lemma rstep5 s m name id ver : (m < length (c_pcs s))%nat -> cas_tab s name ver = true ->
  cexec (with_pc s m (CRest5 name id ver)) (AStep m) =
  (with_pc (put_tab s name {| t_cluster := id; t_recover := 0 |} [id]) m CIdle, CRRestored id).
Proof.
  intros Hm Ec. unfold with_pc, put_tab. cbn [cexec c_pcs c_seq c_tabs c_next c_created].
  rewrite (get_set_pc _ _ _ Hm). change (cas_tab _ name ver) with (cas_tab s name ver).
  now rewrite Ec, set_set_pc.
Qed.

Theorem restore_alone s m name : (m < length (c_pcs s))%nat -> get_pc (c_pcs s) m = CIdle ->
  exists s', crun s [ARestore m name; AStep m; AStep m; AStep m; AStep m; AStep m] =
               (s', [CRNone; CRNone; CRNone; CRNone; CRNone; CRRestored (cur s + 1)]) /\
             tget (c_tabs s') name = Some ({| t_cluster := cur s + 1; t_recover := 0 |}, c_next s + 2) /\
             c_created s' = (cur s + 1) :: c_created s.
Proof.
  intros Hm Ep. pose proof (cas_tab_now s name) as Hcas. cbn [crun].
  rewrite (rstep0 s m name Ep). destruct (tread s name) as [r ver]. cbn [fst snd] in Hcas |- *.
  rewrite rstep1 by exact Hm.
  rewrite rstep2 by exact Hm.
  rewrite rstep3; [|exact Hm|exact Hcas].
  (* from here on the record is the one this restore wrote, at the index of that write *)
  erewrite rstep4; [|exact Hm|apply tget_put_tab].
  rewrite rstep5; [|exact Hm|apply cas_put_tab].
  eexists. split; [reflexivity|]. split; [|reflexivity].
  cbn [with_pc c_tabs]. rewrite tget_put_tab. cbn [put_tab put_seq c_next]. do 2 f_equal. lia.
Qed.

(* once the record exists its version is positive, and a write with version 0 is refused *)
Theorem race_second_create_fails s m name id r w : CInv s ->
  get_pc (c_pcs s) m = CCreate3 name id -> tget (c_tabs s) name = Some (r, w) ->
  snd (cexec s (AStep m)) = CRExists.
Proof.
  intros HI Ep Hr. cbn [cexec]. rewrite Ep. unfold cas_tab. rewrite Hr.
  destruct (j_tabv s HI name r w Hr) as [H1 _].
  replace (w =? 0) with false by (symmetry; apply N.eqb_neq; lia). reflexivity.
Qed.

(* the version a deletion read from the record is positive, and once the record is gone a write with that version is
   refused: an absent key has version 0 *)
Theorem delete_reads_positive s m name r ver : CInv s -> get_pc (c_pcs s) m = CIdle -> tget (c_tabs s) name = Some (r, ver) ->
  fst (cexec s (ADelete m name)) = with_pc s m (CDelete1 name ver) /\ 1 <= ver.
Proof.
  intros HI Ep Et. cbn [cexec]. rewrite Ep, Et. split; [reflexivity|]. destruct (j_tabv s HI name r ver Et). assumption.
Qed.
Lemma cas_tab_absent s name ver : tget (c_tabs s) name = None -> ver <> 0 -> cas_tab s name ver = false.
Proof. intros Et Hv. unfold cas_tab. rewrite Et. now apply N.eqb_neq. Qed.

Theorem race_second_delete_fails s m name ver : get_pc (c_pcs s) m = CDelete1 name ver -> ver <> 0 ->
  tget (c_tabs s) name = None -> snd (cexec s (AStep m)) = CRFailed /\ c_tabs (fst (cexec s (AStep m))) = c_tabs s.
Proof. intros Ep Hv Et. cbn [cexec]. rewrite Ep, (cas_tab_absent s name ver Et Hv). now split. Qed.
(* ... and a restore that lost its table to a deletion cannot bring the record back with the version it read *)
Theorem restore_after_delete_fails s m name r ver id : get_pc (c_pcs s) m = CRest3 name r ver id -> ver <> 0 ->
  tget (c_tabs s) name = None -> snd (cexec s (AStep m)) = CRFailed /\ c_tabs (fst (cexec s (AStep m))) = c_tabs s.
Proof. intros Ep Hv Et. cbn [cexec]. rewrite Ep, (cas_tab_absent s name ver Et Hv). now split. Qed.

(* sequentially (no other manager acting in between) a creation succeeds iff the name is absent: an existing name is
   refused at the first operation; for an absent name each of the three following operations succeeds as long as
   nobody else changed what it read *)
Theorem create_existing_refused s m name rv : get_pc (c_pcs s) m = CIdle -> tget (c_tabs s) name = Some rv ->
  snd (cexec s (ACreate m name)) = CRExists.
Proof. intros Ep Et. cbn [cexec]. now rewrite Ep, Et. Qed.

Theorem create_step_seq_ok s m name v ver : get_pc (c_pcs s) m = CCreate2 name v ver ->
  (c_seq s = Some (v, ver) \/ (c_seq s = None /\ ver = 0)) ->
  exists s', cexec s (AStep m) = (s', CRNone) /\ c_pcs s' = set_pc (c_pcs s) m (CCreate3 name (v + 1)) /\ c_tabs s' = c_tabs s.
Proof.
  intros Ep Hs. cbn [cexec]. rewrite Ep. unfold cas_seq. destruct Hs as [Hs|[Hs ->]]; rewrite Hs.
  - rewrite N.eqb_refl. eexists. repeat split.
  - eexists. repeat split.
Qed.

Theorem create_step_record_ok s m name id : get_pc (c_pcs s) m = CCreate3 name id -> tget (c_tabs s) name = None ->
  snd (cexec s (AStep m)) = CRCreated id.
Proof. intros Ep Et. cbn [cexec]. rewrite Ep. unfold cas_tab. now rewrite Et. Qed.

Theorem listing_exact s m name : get_pc (c_pcs s) m = CIdle ->
  forall l, snd (cexec s (AList m)) = CRList l ->
  (In name (map fst l) <-> exists rv, In (name, rv) (c_tabs s)).
Proof.
  intros Ep l. cbn [cexec]. rewrite Ep. intros [= <-]. rewrite map_map. simpl. split.
  - intros H. apply in_map_iff in H. destruct H as ([n rv] & <- & Hin). eauto.
  - intros [rv Hin]. apply in_map_iff. exists (name, rv). auto.
Qed.

(* both halves of diffTables are a set difference cut off at the range start *)
Lemma in_diff A B id :
  In id (filter (fun id => negb (memN id B) && (start_id <? id)) A) <-> In id A /\ ~ In id B /\ start_id < id.
Proof.
  rewrite filter_In, andb_true_iff, negb_true_iff, N.ltb_lt, <- (existsb_Neqb id B). fold (memN id B).
  destruct (memN id B); intuition congruence.
Qed.

Theorem diff_exact tabs running id :
  (In id (to_start tabs running) <-> In id (catalogued_ids tabs) /\ ~ In id running /\ start_id < id) /\
  (In id (to_stop tabs running) <-> In id running /\ ~ In id (catalogued_ids tabs) /\ start_id < id).
Proof. split; apply in_diff. Qed.

Theorem family_isolation {V} (f : family V) id v j : j <> id -> fam_update f id v j = f j.
Proof. intros H. unfold fam_update. destruct (N.eqb_spec j id); [contradiction|reflexivity]. Qed.
